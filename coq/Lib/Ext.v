(* Extended pixel values (finite / -inf / +inf / NaN) and the fill used for non-finite pixels before a
   rank filter - used by the curvature leaves of C13 (tools/points_c13.py). *)
From Coq Require Import ZArith Bool List Lia.
Import ListNotations.
Open Scope Z_scope.

Inductive ev := Fin (z : Z) | NInf | PInf | NaN.
Definition neg_ev (x : ev) : ev :=
  match x with Fin z => Fin (- z) | NInf => PInf | PInf => NInf | NaN => NaN end.
(* float == : NaN is equal to nothing *)
Definition ev_eqb (x y : ev) : bool :=
  match x, y with
  | Fin a, Fin b => a =? b
  | NInf, NInf => true
  | PInf, PInf => true
  | _, _ => false
  end.

(* np.where(np.isfinite(x), x, FILL): what replaces the non-finite pixels (FillNone: nothing is replaced) *)
Inductive fill := FillNone | FillNegInf | FillPosInf | FillConst (z : Z).
Definition apply_fill (f : fill) (x : ev) : ev :=
  match f, x with
  | FillNone, _ => x
  | _, Fin z => x
  | FillNegInf, _ => NInf
  | FillPosInf, _ => PInf
  | FillConst z, _ => Fin z
  end.
Definition neg_fill (f : fill) : fill :=
  match f with FillNone => FillNone | FillNegInf => FillPosInf | FillPosInf => FillNegInf
             | FillConst z => FillConst (- z) end.

Lemma neg_ev_invol : forall x, neg_ev (neg_ev x) = x.
Proof. intros [z| | |]; cbn [neg_ev]; try reflexivity. rewrite Z.opp_involutive. reflexivity. Qed.
Lemma neg_fill_invol : forall f, neg_fill (neg_fill f) = f.
Proof. intros [| | |z]; cbn [neg_fill]; try reflexivity. rewrite Z.opp_involutive. reflexivity. Qed.
Lemma ev_eqb_neg : forall x y, ev_eqb (neg_ev x) (neg_ev y) = ev_eqb x y.
Proof.
  intros [a| | |] [b| | |]; cbn [neg_ev ev_eqb]; try reflexivity.
  destruct (Z.eqb_spec a b) as [->|Hne]; [apply Z.eqb_refl|apply Z.eqb_neq; lia].
Qed.
Lemma apply_fill_neg : forall f x, apply_fill (neg_fill f) (neg_ev x) = neg_ev (apply_fill f x).
Proof. intros [| | |z] [a| | |]; reflexivity. Qed.

(* rank filters on windows without NaN (-inf < finite < +inf); with NaN in the window the result of
   scipy's filters is whatever its running comparison leaves - not modelled *)
Definition ev_leb (x y : ev) : bool :=
  match x, y with
  | NInf, _ => true | _, PInf => true
  | Fin a, Fin b => a <=? b
  | _, _ => false
  end.
Definition max_ev (l : list ev) : ev :=
  match l with [] => NaN | a :: t => fold_left (fun m x => if ev_leb m x then x else m) t a end.
Definition min_ev (l : list ev) : ev :=
  match l with [] => NaN | a :: t => fold_left (fun m x => if ev_leb x m then x else m) t a end.

Lemma ev_leb_neg : forall a b, ev_leb (neg_ev a) (neg_ev b) = ev_leb b a.
Proof.
  intros [x| | |] [y| | |]; cbn [neg_ev ev_leb]; try reflexivity.
  destruct (Z.leb_spec (- x) (- y)), (Z.leb_spec y x); try reflexivity; lia.
Qed.
Lemma max_ev_neg : forall v, max_ev (map neg_ev v) = neg_ev (min_ev v).
Proof.
  intros [|a t]; [reflexivity|]. cbn [map max_ev min_ev]. revert a.
  induction t as [|x t IH]; intro a; cbn [map fold_left]; [reflexivity|].
  rewrite ev_leb_neg. destruct (ev_leb x a); apply IH.
Qed.
Lemma min_ev_neg : forall v, min_ev (map neg_ev v) = neg_ev (max_ev v).
Proof.
  intros [|a t]; [reflexivity|]. cbn [map max_ev min_ev]. revert a.
  induction t as [|x t IH]; intro a; cbn [map fold_left]; [reflexivity|].
  rewrite ev_leb_neg. destruct (ev_leb a x); apply IH.
Qed.
