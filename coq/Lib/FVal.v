(* Extended values for catalogue columns: what a binary64 field of an Aegean source can hold,
   read as an exact rational (every finite float is a dyadic rational), +-inf or NaN.
   Comparisons and additions follow IEEE-754 for the special values (NaN compares false with
   everything, inf - inf = NaN).  Rounding of finite results is NOT modelled: arithmetic on
   Fin is exact rational arithmetic. *)
From Coq Require Import QArith Qround Lqa ZArith Bool Lia.
From Aegean Require Lib.QBase.
Open Scope Q_scope.

Definition Qleb (a b : Q) : bool := Qle_bool a b.
Definition Qltb (a b : Q) : bool := negb (Qle_bool b a).

Lemma Qleb_iff a b : Qleb a b = true <-> a <= b.
Proof. exact (QBase.Qleb_le a b). Qed.
Lemma Qltb_iff a b : Qltb a b = true <-> a < b.
Proof. exact (QBase.Qltb_lt a b). Qed.
Lemma Qleb_false a b : Qleb a b = false <-> b < a.
Proof. exact (QBase.Qleb_false a b). Qed.
Lemma Qltb_false a b : Qltb a b = false <-> b <= a.
Proof. exact (QBase.Qltb_false a b). Qed.

Inductive fval : Type := Fin (q : Q) | PInf | NInf | NaN.

Definition FZ (z : Z) : fval := Fin (inject_Z z).

Definition is_fin (x : fval) : bool := match x with Fin _ => true | _ => false end.

Definition fle (x y : fval) : bool :=
  match x, y with
  | NaN, _ | _, NaN => false
  | Fin a, Fin b => Qleb a b
  | NInf, _ => true
  | _, PInf => true
  | _, _ => false
  end.
Definition flt (x y : fval) : bool :=
  match x, y with
  | NaN, _ | _, NaN => false
  | Fin a, Fin b => Qltb a b
  | PInf, _ => false
  | _, NInf => false
  | _, _ => true
  end.

Definition fadd (x y : fval) : fval :=
  match x, y with
  | NaN, _ | _, NaN => NaN
  | Fin a, Fin b => Fin (a + b)
  | PInf, NInf | NInf, PInf => NaN
  | PInf, _ | _, PInf => PInf
  | NInf, _ | _, NInf => NInf
  end.
Definition fneg (x : fval) : fval :=
  match x with Fin a => Fin (- a) | PInf => NInf | NInf => PInf | NaN => NaN end.
Definition fsub (x y : fval) : fval := fadd x (fneg y).

Lemma fle_fin a b : fle (Fin a) (Fin b) = true <-> a <= b.
Proof. apply Qleb_iff. Qed.
Lemma flt_fin a b : flt (Fin a) (Fin b) = true <-> a < b.
Proof. apply Qltb_iff. Qed.
Lemma fle_fin_false a b : fle (Fin a) (Fin b) = false <-> b < a.
Proof. apply Qleb_false. Qed.
Lemma flt_fin_false a b : flt (Fin a) (Fin b) = false <-> b <= a.
Proof. apply Qltb_false. Qed.

Definition fin_in_lo_hi (strict_lo strict_hi : bool) (lo hi : Q) (x : fval) : bool :=
  match x with
  | Fin q => (if strict_lo then Qltb lo q else Qleb lo q) && (if strict_hi then Qltb q hi else Qleb q hi)
  | _ => false
  end.
