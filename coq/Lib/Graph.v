(* Lib/Graph.v - finite undirected graphs given as a node list plus a boolean adjacency.

   component x : the connectivity class of x (fuelled closure of the frontier step)
   components  : all connectivity classes, in order of their first node in [nodes]

   Definitions depend only on A / eqb / adj / nodes; the hypotheses eqb_spec, nodes_nodup and
   adj_sym are premises of the theorems that need them.  After [End Graph] the argument order
   is  connected A adj nodes x y,  component A eqb adj nodes x,  components A eqb adj nodes. *)
From Coq Require Import List Bool Arith Lia Relations.
From Aegean Require Export Lib.Lists.
Import ListNotations.

Fixpoint pairwise {A} (R : A -> A -> Prop) (l : list A) : Prop :=
  match l with
  | [] => True
  | a :: t => (forall b, In b t -> R a b) /\ pairwise R t
  end.

Lemma pairwise_snoc {A} (R : A -> A -> Prop) (l : list A) (a : A) :
  pairwise R l -> (forall b, In b l -> R b a) -> pairwise R (l ++ [a]).
Proof.
  induction l as [|x l IH]; simpl; intros Hl Ha; [split; [intros b []|exact I]|].
  destruct Hl as (Hx & Hl). split; [|apply IH; auto].
  intros b Hb. apply in_app_or in Hb as [Hb|[<-|[]]]; auto.
Qed.

Lemma pairwise_filter {A} (R : A -> A -> Prop) (f : A -> bool) (l : list A) :
  pairwise R l -> pairwise R (filter f l).
Proof.
  induction l as [|x l IH]; simpl; auto.
  intros (Hx & Hl). destruct (f x); simpl; auto.
  split; auto. intros b Hb. apply filter_In in Hb as (Hb & _). auto.
Qed.

Lemma pairwise_nth_error {A} (R : A -> A -> Prop) (l : list A) :
  (forall a b, R a b -> R b a) -> pairwise R l ->
  forall i j a b, nth_error l i = Some a -> nth_error l j = Some b -> i <> j -> R a b.
Proof.
  intros Hsym. induction l as [|x l IH]; intros Hp i j a b Hi Hj Hij.
  - destruct i; discriminate.
  - destruct Hp as (Hx & Hl). destruct i as [|i], j as [|j]; simpl in Hi, Hj.
    + congruence.
    + injection Hi as <-. apply Hx. eapply nth_error_In; eauto.
    + injection Hj as <-. apply Hsym, Hx. eapply nth_error_In; eauto.
    + apply (IH Hl i j); auto.
Qed.

Definition disjoint {A} (C D : list A) : Prop := forall p, In p C -> ~ In p D.

Lemma disjoint_sym {A} (C D : list A) : disjoint C D -> disjoint D C.
Proof. intros H p HD HC. exact (H p HC HD). Qed.

Section Graph.
Variable A : Type.
Variable eqb : A -> A -> bool.
Hypothesis eqb_spec : forall x y, reflect (x = y) (eqb x y).
Variable adj : A -> A -> bool.
Variable nodes : list A.
Hypothesis nodes_nodup : NoDup nodes.
Hypothesis adj_sym : forall x y, adj x y = true -> adj y x = true.

Definition mem (x : A) (l : list A) : bool := existsb (eqb x) l.

Lemma mem_In x l : mem x l = true <-> In x l.
Proof. unfold mem. rewrite existsb_exists. split.
  - intros [y [Hy He]]. destruct (eqb_spec x y); [subst; auto|discriminate].
  - intros H. exists x. split; auto. destruct (eqb_spec x x); auto. Qed.
Lemma mem_false x l : mem x l = false <-> ~ In x l.
Proof. rewrite <- mem_In. destruct (mem x l); split; congruence. Qed.

Definition edge (x y : A) : Prop := In x nodes /\ In y nodes /\ adj x y = true.
Definition connected : A -> A -> Prop := clos_refl_trans A edge.

Definition frontier (acc : list A) : list A :=
  filter (fun n => negb (mem n acc) && existsb (fun a => adj a n) acc) nodes.
Definition step (acc : list A) : list A := frontier acc ++ acc.
Fixpoint grow (fuel : nat) (acc : list A) : list A :=
  match fuel with O => acc | S f => grow f (step acc) end.
Definition component (x : A) : list A := grow (length nodes) [x].

Fixpoint comps_aux (todo : list A) (acc : list (list A)) : list (list A) :=
  match todo with
  | [] => rev acc
  | x :: t => if existsb (mem x) acc then comps_aux t acc else comps_aux t (component x :: acc)
  end.
Definition components : list (list A) := comps_aux nodes [].

Lemma frontier_In acc n : In n (frontier acc) <->
  In n nodes /\ ~ In n acc /\ exists a, In a acc /\ adj a n = true.
Proof. unfold frontier. rewrite filter_In, andb_true_iff, negb_true_iff, mem_false, existsb_exists. tauto. Qed.

Definition Inv (x : A) (acc : list A) : Prop :=
  NoDup acc /\ incl acc nodes /\ In x acc /\ forall y, In y acc -> connected x y.

Lemma step_inv x acc : Inv x acc -> Inv x (step acc).
Proof.
  intros (Hnd & Hincl & Hx & Hc). unfold step. split; [|split; [|split]].
  - apply NoDup_app_intro; auto. apply NoDup_filter, nodes_nodup.
    intros n Hn. apply frontier_In in Hn. tauto.
  - intros n Hn. apply in_app_or in Hn as [Hn|Hn]; auto. apply frontier_In in Hn. tauto.
  - apply in_or_app; auto.
  - intros y Hy. apply in_app_or in Hy as [Hy|Hy]; auto.
    apply frontier_In in Hy as (Hyn & _ & a & Ha & Hadj).
    apply rt_trans with a; [apply Hc; exact Ha|]. apply rt_step. split; [apply Hincl, Ha|split; auto].
Qed.

Lemma grow_inv x fuel acc : Inv x acc -> Inv x (grow fuel acc).
Proof. revert acc; induction fuel as [|f IH]; simpl; intros acc H; auto. apply IH, step_inv, H. Qed.

Lemma step_fixed acc : frontier acc = [] -> step acc = acc.
Proof. unfold step; intros ->; reflexivity. Qed.
Lemma grow_fixed fuel acc : frontier acc = [] -> grow fuel acc = acc.
Proof. induction fuel as [|f IH]; simpl; intros H; auto. rewrite (step_fixed _ H); auto. Qed.

Lemma grow_len fuel acc :
  frontier (grow fuel acc) = [] \/ length (grow fuel acc) >= length acc + fuel.
Proof.
  revert acc; induction fuel as [|f IH]; simpl; intros acc; [right; lia|].
  destruct (frontier acc) eqn:E.
  - left. rewrite (step_fixed _ E), (grow_fixed _ _ E); exact E.
  - destruct (IH (step acc)) as [H|H]; [left; exact H|right].
    unfold step in H at 2. rewrite E, app_length in H. simpl in H. lia.
Qed.

Lemma inv_init x : In x nodes -> Inv x [x].
Proof.
  intros Hx. split; [|split; [|split]].
  - repeat constructor; simpl; tauto.
  - intros y [->|[]]; auto.
  - simpl; auto.
  - intros y [->|[]]; apply rt_refl.
Qed.

Lemma component_inv x : In x nodes -> Inv x (component x).
Proof. intros Hx. apply grow_inv, inv_init, Hx. Qed.

Lemma component_closed x : In x nodes -> frontier (component x) = [].
Proof.
  intros Hx. unfold component.
  destruct (grow_len (length nodes) [x]) as [H|H]; auto.
  pose proof (grow_inv x (length nodes) [x] (inv_init x Hx)) as (Hnd & Hincl & _).
  pose proof (NoDup_incl_length Hnd Hincl). simpl in H. lia.
Qed.

Lemma frontier_closed acc z y : frontier acc = [] -> connected z y -> In z acc -> In y acc.
Proof.
  intros Hf H. induction H as [z y (Hz & Hy & Ha)|z|z w y _ IH1 _ IH2]; auto.
  intros Hzin. destruct (mem y acc) eqn:Em; [apply mem_In, Em|]. apply mem_false in Em.
  assert (Hin : In y (frontier acc)) by (apply frontier_In; eauto).
  rewrite Hf in Hin. destruct Hin.
Qed.

Theorem component_spec x y : In x nodes ->
  (In y (component x) <-> connected x y).
Proof.
  intros Hx. pose proof (component_inv x Hx) as (_ & _ & Hxin & Hsound).
  split; [apply Hsound|]. intros Hc. exact (frontier_closed _ x y (component_closed x Hx) Hc Hxin).
Qed.

Lemma component_self x : In x nodes -> In x (component x).
Proof. intros Hx. apply (component_inv x Hx). Qed.

Lemma connected_refl x : connected x x.
Proof. apply rt_refl. Qed.
Lemma connected_trans x y z : connected x y -> connected y z -> connected x z.
Proof. intros H1 H2. eapply rt_trans; eauto. Qed.
Lemma edge_sym x y : edge x y -> edge y x.
Proof. intros (Hx & Hy & Ha). split; [|split]; auto. Qed.
Lemma connected_sym x y : connected x y -> connected y x.
Proof.
  intros H. induction H as [x y H|x|x y z _ IH1 _ IH2].
  - apply rt_step, edge_sym, H.
  - apply rt_refl.
  - eapply rt_trans; eauto.
Qed.
Lemma connected_in_nodes x y : connected x y -> In x nodes -> In y nodes.
Proof.
  intros H. induction H as [x y (_ & Hy & _)|x|x y z _ IH1 _ IH2]; auto.
Qed.

Lemma component_class x p q : In x nodes -> In p (component x) ->
  (In q (component x) <-> connected p q).
Proof.
  intros Hx Hp. apply (component_spec x p Hx) in Hp. rewrite (component_spec x q Hx). split.
  - intros Hq. eapply connected_trans; [apply connected_sym, Hp|exact Hq].
  - intros Hpq. eapply connected_trans; eauto.
Qed.

Lemma component_disjoint x y : In x nodes -> In y nodes ->
  ~ In x (component y) -> disjoint (component x) (component y).
Proof.
  intros Hx Hy Hn p Hpx Hpy. apply Hn.
  apply (component_class y p x Hy Hpy). apply connected_sym.
  apply (component_spec x p Hx), Hpx.
Qed.

Definition is_class (C : list A) : Prop := exists x, In x nodes /\ C = component x.

Lemma comps_aux_acc todo acc C : In C acc -> In C (comps_aux todo acc).
Proof.
  revert acc. induction todo as [|x t IH]; intros acc H; cbn [comps_aux].
  - apply in_rev in H. exact H.
  - destruct (existsb (mem x) acc); apply IH; simpl; auto.
Qed.

Lemma comps_aux_cover todo acc x : incl todo nodes -> In x todo ->
  exists C, In C (comps_aux todo acc) /\ In x C.
Proof.
  revert acc. induction todo as [|y t IH]; intros acc Hincl Hx; [destruct Hx|].
  apply incl_cons_inv in Hincl as (Hy & Ht). cbn [comps_aux].
  destruct Hx as [<-|Hx]; [|destruct (existsb (mem y) acc); apply IH; auto].
  destruct (existsb (mem y) acc) eqn:E.
  - apply existsb_exists in E as (C & HC & Hm). exists C. split; [apply comps_aux_acc, HC | apply mem_In, Hm].
  - exists (component y). split; [apply comps_aux_acc; left; reflexivity | apply component_self, Hy].
Qed.

Lemma comps_aux_class todo acc : incl todo nodes -> (forall C, In C acc -> is_class C) ->
  forall C, In C (comps_aux todo acc) -> is_class C.
Proof.
  revert acc. induction todo as [|y t IH]; intros acc Hincl Hcl; cbn [comps_aux].
  - intros C HC. apply Hcl, in_rev, HC.
  - apply incl_cons_inv in Hincl as (Hy & Ht). destruct (existsb (mem y) acc); apply IH; auto.
    intros C [<-|HC]; auto. exists y. auto.
Qed.

(* the accumulator holds the classes found so far, newest first; a new one is disjoint from all of them *)
Lemma comps_aux_pairwise todo acc : incl todo nodes ->
  (forall C, In C acc -> is_class C) -> pairwise disjoint (rev acc) ->
  pairwise disjoint (comps_aux todo acc).
Proof.
  revert acc. induction todo as [|y t IH]; intros acc Hincl Hcl Hp; cbn [comps_aux]; [exact Hp|].
  apply incl_cons_inv in Hincl as (Hy & Ht).
  destruct (existsb (mem y) acc) eqn:E; apply IH; auto.
  - intros C [<-|HC]; auto. exists y. auto.
  - cbn [rev]. apply pairwise_snoc; [exact Hp|].
    intros D HD. apply in_rev in HD. destruct (Hcl D HD) as (z & Hz & ->).
    apply disjoint_sym, component_disjoint; auto.
    intros Hin. apply not_true_iff_false in E. apply E.
    apply existsb_exists. exists (component z). split; auto. apply mem_In, Hin.
Qed.

Theorem components_class C : In C components -> is_class C.
Proof. apply comps_aux_class; [apply incl_refl | intros D []]. Qed.

Theorem components_cover x : In x nodes -> exists C, In C components /\ In x C.
Proof. intros Hx. apply comps_aux_cover; auto. apply incl_refl. Qed.

Theorem components_pairwise : pairwise disjoint components.
Proof. apply comps_aux_pairwise; [apply incl_refl | intros C [] | exact I]. Qed.

Theorem components_disjoint i j C D :
  nth_error components i = Some C -> nth_error components j = Some D -> i <> j ->
  forall p, In p C -> ~ In p D.
Proof.
  intros Hi Hj Hij.
  apply (pairwise_nth_error disjoint components (@disjoint_sym A) components_pairwise i j); auto.
Qed.

Theorem components_partition C : In C components ->
  C <> [] /\ NoDup C /\ incl C nodes /\ forall p q, In p C -> (In q C <-> connected p q).
Proof.
  intros H. destruct (components_class C H) as (x & Hx & ->). destruct (component_inv x Hx) as (Hnd & Hincl & Hxin & _).
  repeat split; try assumption; try (apply component_class; assumption).
  intros E. rewrite E in Hxin. destruct Hxin.
Qed.

Theorem components_spec C p q : In C components -> In p C -> (In q C <-> connected p q).
Proof. intros H. apply (components_partition C H). Qed.

Theorem components_complete p q : In p nodes -> connected p q ->
  exists C, In C components /\ In p C /\ In q C.
Proof.
  intros Hp Hpq. destruct (components_cover p Hp) as (C & HC & HpC).
  exists C. split; [|split]; auto. apply (components_spec C p q HC HpC), Hpq.
Qed.

End Graph.

Arguments pairwise {A} R l.
Arguments disjoint {A} C D.
