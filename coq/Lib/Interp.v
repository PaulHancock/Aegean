(* Linear interpolation on a rectilinear grid over Q (the contract of
   scipy.interpolate.RegularGridInterpolator(method='linear') in two dimensions).

   rgi_spec  : the library contract used as an explicit hypothesis by the C15 theorems: at a point
               that lies in cell (i, j) of strictly increasing axes the value is the bilinear
               combination of the four corner values of that cell (any cell that contains the point).
   bilinear  : an executable instance (scan for the cell, then the formula), with the proof that it
               satisfies rgi_spec - so the contract is consistent and the C15 theorems are not vacuous.
   Axiom-free. *)
From Coq Require Import ZArith QArith Qfield Lqa Lia List Bool.
From Aegean Require Lib.QBase.
Import ListNotations.
Open Scope Q_scope.

Definition bilin_cell (x0 x1 y0 y1 v00 v01 v10 v11 x y : Q) : Q :=
  let tx := (x - x0) / (x1 - x0) in
  let ty := (y - y0) / (y1 - y0) in
  (1 - tx) * (1 - ty) * v00 + (1 - tx) * ty * v01 + tx * (1 - ty) * v10 + tx * ty * v11.

(* value at (x, y) computed from cell (i, j) of the axes rn (rows) and cn (columns) *)
Definition cell_value (rn cn : Z -> Q) (v : Z -> Z -> Q) (i j : Z) (x y : Q) : Q :=
  bilin_cell (rn i) (rn (i + 1)%Z) (cn j) (cn (j + 1)%Z)
             (v i j) (v i (j + 1)%Z) (v (i + 1)%Z j) (v (i + 1)%Z (j + 1)%Z) x y.

(* an axis is the function k |-> node k on indices 0 .. n-1 *)
Definition increasing (g : Z -> Q) (n : Z) : Prop :=
  forall k, (0 <= k)%Z -> (k + 1 < n)%Z -> g k < g (k + 1)%Z.

Definition in_cell (g : Z -> Q) (n i : Z) (x : Q) : Prop :=
  (0 <= i)%Z /\ (i + 1 < n)%Z /\ g i <= x /\ x <= g (i + 1)%Z.

Definition interpolator := (Z -> Q) -> Z -> (Z -> Q) -> Z -> (Z -> Z -> Q) -> Q -> Q -> Q.

Definition rgi_spec (rgi : interpolator) : Prop :=
  forall rn nr cn nc v x y i j,
    increasing rn nr -> increasing cn nc -> in_cell rn nr i x -> in_cell cn nc j y ->
    rgi rn nr cn nc v x y == cell_value rn cn v i j x y.

(* what the library checks before it interpolates: strictly ascending axes, query inside *)
Fixpoint zrange_from (a : Z) (n : nat) : list Z :=
  match n with O => [] | S m => a :: zrange_from (a + 1)%Z m end.
Definition zrange (n : Z) : list Z := zrange_from 0%Z (Z.to_nat n).

Definition Qlt_bool (a b : Q) : bool := negb (Qle_bool b a).

Definition increasingb (g : Z -> Q) (n : Z) : bool :=
  forallb (fun k => Qlt_bool (g k) (g (k + 1)%Z)) (zrange (n - 1)).

Definition axis_ok (g : Z -> Q) (n : Z) (lo hi : Q) : bool :=
  (2 <=? n)%Z && increasingb g n && Qle_bool (g 0%Z) lo && Qle_bool hi (g (n - 1)%Z).

Fixpoint find_from (g : Z -> Q) (x : Q) (fuel : nat) (i : Z) : Z :=
  match fuel with
  | O => i
  | S m => if Qle_bool x (g (i + 1)%Z) then i else find_from g x m (i + 1)%Z
  end.

Definition find_cell (g : Z -> Q) (n : Z) (x : Q) : Z := find_from g x (Z.to_nat (n - 2)) 0%Z.

Definition bilinear : interpolator :=
  fun rn nr cn nc v x y => cell_value rn cn v (find_cell rn nr x) (find_cell cn nc y) x y.

(* side conditions of `field`: denominators are differences of strictly ordered nodes *)
Ltac nonzero := repeat split; intros ZZ; lra.

Lemma Qlt_bool_lt a b : Qlt_bool a b = true <-> a < b.
Proof. exact (QBase.Qltb_lt a b). Qed.

Lemma in_zrange_from k : forall n a, In k (zrange_from a n) <-> (a <= k < a + Z.of_nat n)%Z.
Proof.
  induction n as [|n IH]; intros a; cbn [zrange_from In].
  - lia.
  - rewrite IH. lia.
Qed.

Lemma in_zrange k n : In k (zrange n) <-> (0 <= k < n)%Z.
Proof. unfold zrange. rewrite in_zrange_from. lia. Qed.

Lemma increasingb_iff g n : increasingb g n = true <-> increasing g n.
Proof.
  unfold increasingb, increasing. rewrite forallb_forall. split.
  - intros H k H0 H1. apply Qlt_bool_lt. apply H. apply in_zrange. lia.
  - intros H k Hk. apply in_zrange in Hk. apply Qlt_bool_lt. apply H; lia.
Qed.

Lemma axis_ok_iff g n lo hi :
  axis_ok g n lo hi = true <-> ((2 <= n)%Z /\ increasing g n /\ g 0%Z <= lo /\ hi <= g (n - 1)%Z).
Proof.
  unfold axis_ok. rewrite !andb_true_iff, Z.leb_le, increasingb_iff, !Qle_bool_iff. tauto.
Qed.

Lemma increasing_lt g n : increasing g n ->
  forall a b, (0 <= a)%Z -> (a < b)%Z -> (b < n)%Z -> g a < g b.
Proof.
  intros Hinc a b Ha Hab. revert b Hab.
  apply (Z.lt_ind (fun b => (b < n)%Z -> g a < g b)); [intros x y ->; reflexivity | |].
  - intros Hb. apply Hinc; lia.
  - intros m Hm IH Hb. apply Qlt_trans with (g m); [apply IH; lia | apply Hinc; lia].
Qed.

Lemma find_from_in_cell g n x : increasing g n -> x <= g (n - 1)%Z ->
  forall fuel i, (0 <= i)%Z -> (i + Z.of_nat fuel = n - 2)%Z -> g i <= x ->
  in_cell g n (find_from g x fuel i) x.
Proof.
  intros Hinc Hhi. induction fuel as [|m IH]; intros i Hi Hf Hlo; cbn [find_from].
  - unfold in_cell. repeat split; try lia; [exact Hlo|].
    replace (i + 1)%Z with (n - 1)%Z by lia. exact Hhi.
  - destruct (Qle_bool x (g (i + 1)%Z)) eqn:E.
    + apply Qle_bool_iff in E. unfold in_cell. repeat split; try lia; assumption.
    + apply IH; try lia.
      apply Qlt_le_weak. apply Qnot_le_lt. intros L. apply Qle_bool_iff in L. congruence.
Qed.

Lemma find_cell_in_cell g n x : (2 <= n)%Z -> increasing g n -> g 0%Z <= x -> x <= g (n - 1)%Z ->
  in_cell g n (find_cell g n x) x.
Proof.
  intros Hn Hinc Hlo Hhi. unfold find_cell. apply find_from_in_cell; try assumption; lia.
Qed.

Lemma increasing_le g n : increasing g n ->
  forall a b, (0 <= a)%Z -> (a <= b)%Z -> (b < n)%Z -> g a <= g b.
Proof.
  intros Hinc a b Ha Hab Hb. destruct (Z.eq_dec a b) as [->|N]; [apply Qle_refl|].
  apply Qlt_le_weak, (increasing_lt g n Hinc); lia.
Qed.

(* a point that lies in some cell is inside the axis, so the scan finds a cell that contains it *)
Lemma find_cell_of_in_cell g n i x : increasing g n -> in_cell g n i x -> in_cell g n (find_cell g n x) x.
Proof.
  intros Hinc (I0 & I1 & Lo & Hi). apply find_cell_in_cell; try assumption; try lia.
  - apply Qle_trans with (g i); [apply (increasing_le g n Hinc); lia | exact Lo].
  - apply Qle_trans with (g (i + 1)%Z); [exact Hi | apply (increasing_le g n Hinc); lia].
Qed.

Lemma cells_containing g n x i i' : increasing g n -> in_cell g n i x -> in_cell g n i' x ->
  i = i' \/ (i' = i + 1 /\ x == g (i + 1))%Z \/ (i = i' + 1 /\ x == g (i' + 1))%Z.
Proof.
  intros Hinc.
  assert (K : forall a b, in_cell g n a x -> in_cell g n b x -> (a < b)%Z -> (b = a + 1)%Z /\ x == g (a + 1)%Z).
  { intros a b (A0 & A1 & _ & Ahi) (B0 & B1 & Blo & _) L.
    destruct (Z.eq_dec b (a + 1)) as [->|N]; [split; [reflexivity | apply Qle_antisym; assumption]|].
    exfalso. apply (Qlt_not_le _ _ (increasing_lt g n Hinc (a + 1)%Z b ltac:(lia) ltac:(lia) ltac:(lia))).
    apply Qle_trans with x; assumption. }
  intros Hi Hi'. destruct (Z.lt_trichotomy i i') as [H|[H|H]]; [right; left | left; exact H | right; right]; apply K; assumption.
Qed.

Lemma cell_value_row_indep rn nr cn v i i' j x y : increasing rn nr -> cn j < cn (j + 1)%Z ->
  in_cell rn nr i x -> in_cell rn nr i' x ->
  cell_value rn cn v i j x y == cell_value rn cn v i' j x y.
Proof.
  intros Hinc Hother Hi Hi'.
  assert (K : forall a, in_cell rn nr a x -> in_cell rn nr (a + 1) x -> x == rn (a + 1)%Z ->
              cell_value rn cn v a j x y == cell_value rn cn v (a + 1) j x y).
  { intros a (A0 & A1 & _ & _) (B0 & B1 & _ & _) E.
    pose proof (Hinc a A0 A1) as L1. pose proof (Hinc (a + 1)%Z B0 B1) as L2.
    unfold cell_value, bilin_cell. rewrite E. field. nonzero. }
  destruct (cells_containing rn nr x i i' Hinc Hi Hi') as [->|[[-> E]|[-> E]]].
  - reflexivity.
  - apply K; assumption.
  - symmetry. apply K; assumption.
Qed.

Lemma cell_value_transpose rn cn v i j x y :
  cell_value rn cn v i j x y == cell_value cn rn (fun a b => v b a) j i y x.
Proof. unfold cell_value, bilin_cell. ring. Qed.

Lemma cell_value_col_indep rn cn nc v i j j' x y : increasing cn nc -> rn i < rn (i + 1)%Z ->
  in_cell cn nc j y -> in_cell cn nc j' y ->
  cell_value rn cn v i j x y == cell_value rn cn v i j' x y.
Proof.
  intros Hinc Hother Hj Hj'. rewrite !(cell_value_transpose rn cn).
  apply (cell_value_row_indep cn nc rn); assumption.
Qed.

Theorem bilinear_spec : rgi_spec bilinear.
Proof.
  intros rn nr cn nc v x y i j Hr Hc Hi Hj. unfold bilinear.
  pose proof (find_cell_of_in_cell rn nr i x Hr Hi) as Fi.
  pose proof (find_cell_of_in_cell cn nc j y Hc Hj) as Fj.
  assert (Lc : cn (find_cell cn nc y) < cn (find_cell cn nc y + 1)%Z)
    by (destruct Fj as (? & ? & _); apply Hc; assumption).
  assert (Lr : rn i < rn (i + 1)%Z) by (destruct Hi as (? & ? & _); apply Hr; assumption).
  rewrite (cell_value_row_indep rn nr cn v _ i _ x y Hr Lc Fi Hi).
  apply (cell_value_col_indep rn cn nc v i _ j x y Hc Lr Fj Hj).
Qed.

Lemma cell_value_corner rn cn v i j x y :
  rn i < rn (i + 1)%Z -> cn j < cn (j + 1)%Z -> x == rn i -> y == cn j ->
  cell_value rn cn v i j x y == v i j.
Proof.
  intros L1 L2 Ex Ey. unfold cell_value, bilin_cell. rewrite Ex, Ey. field. nonzero.
Qed.

Lemma lerp_range lo hi a b t : 0 <= t <= 1 -> lo <= a <= hi -> lo <= b <= hi -> lo <= (1 - t) * a + t * b <= hi.
Proof.
  intros T A B.
  assert (P1 : 0 <= (1 - t) * (a - lo)) by (apply Qmult_le_0_compat; lra).
  assert (P2 : 0 <= t * (b - lo)) by (apply Qmult_le_0_compat; lra).
  assert (P3 : 0 <= (1 - t) * (hi - a)) by (apply Qmult_le_0_compat; lra).
  assert (P4 : 0 <= t * (hi - b)) by (apply Qmult_le_0_compat; lra).
  split; lra.
Qed.

Lemma frac_01 x0 x1 x : x0 < x1 -> x0 <= x <= x1 -> 0 <= (x - x0) / (x1 - x0) <= 1.
Proof.
  intros L A. assert (D : 0 < x1 - x0) by lra.
  split; [apply Qle_shift_div_l | apply Qle_shift_div_r]; lra.
Qed.

Lemma cell_value_range rn cn v i j x y lo hi :
  rn i < rn (i + 1)%Z -> cn j < cn (j + 1)%Z ->
  rn i <= x -> x <= rn (i + 1)%Z -> cn j <= y -> y <= cn (j + 1)%Z ->
  (forall a b, (i <= a <= i + 1)%Z -> (j <= b <= j + 1)%Z -> lo <= v a b /\ v a b <= hi) ->
  lo <= cell_value rn cn v i j x y /\ cell_value rn cn v i j x y <= hi.
Proof.
  intros L1 L2 X0 X1 Y0 Y1 HV. unfold cell_value, bilin_cell.
  pose proof (frac_01 _ _ _ L1 (conj X0 X1)) as TX. pose proof (frac_01 _ _ _ L2 (conj Y0 Y1)) as TY.
  set (tx := (x - rn i) / (rn (i + 1)%Z - rn i)) in *.
  set (ty := (y - cn j) / (cn (j + 1)%Z - cn j)) in *.
  setoid_replace ((1 - tx) * (1 - ty) * v i j + (1 - tx) * ty * v i (j + 1)%Z + tx * (1 - ty) * v (i + 1)%Z j + tx * ty * v (i + 1)%Z (j + 1)%Z)
    with ((1 - tx) * ((1 - ty) * v i j + ty * v i (j + 1)%Z) + tx * ((1 - ty) * v (i + 1)%Z j + ty * v (i + 1)%Z (j + 1)%Z)) by ring.
  apply lerp_range; [exact TX | apply lerp_range | apply lerp_range]; try exact TY; apply HV; lia.
Qed.

Lemma cell_value_affine rn cn v i j x y a b c :
  rn i < rn (i + 1)%Z -> cn j < cn (j + 1)%Z ->
  (forall p q, (i <= p <= i + 1)%Z -> (j <= q <= j + 1)%Z -> v p q == a + b * rn p + c * cn q) ->
  cell_value rn cn v i j x y == a + b * x + c * y.
Proof.
  intros L1 L2 HV. unfold cell_value, bilin_cell.
  rewrite (HV i j), (HV i (j + 1)%Z), (HV (i + 1)%Z j), (HV (i + 1)%Z (j + 1)%Z) by lia.
  field. nonzero.
Qed.

Lemma cell_value_ext rn cn v w i j x y :
  (forall p q, (i <= p <= i + 1)%Z -> (j <= q <= j + 1)%Z -> v p q == w p q) ->
  cell_value rn cn v i j x y == cell_value rn cn w i j x y.
Proof.
  intros HV. unfold cell_value, bilin_cell.
  rewrite (HV i j), (HV i (j + 1)%Z), (HV (i + 1)%Z j), (HV (i + 1)%Z (j + 1)%Z) by lia.
  reflexivity.
Qed.
