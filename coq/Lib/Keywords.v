(* Keyword maps (FITS header cards of one value type) as association lists with the
   semantics of a Python mapping: `k in h`, `h[k]`, `h[k] = v` (replace in place or append),
   `del h[k]`. *)
From Coq Require Import List String Bool.
Import ListNotations.
Open Scope string_scope.

Section Kw.
Context {A : Type}.

Definition kws := list (string * A).

Fixpoint kget (k : string) (h : kws) : option A :=
  match h with
  | [] => None
  | (k', v) :: t => if String.eqb k k' then Some v else kget k t
  end.

Definition khas (k : string) (h : kws) : bool :=
  match kget k h with Some _ => true | None => false end.

Fixpoint kset (k : string) (v : A) (h : kws) : kws :=
  match h with
  | [] => [(k, v)]
  | (k', v') :: t => if String.eqb k k' then (k, v) :: t else (k', v') :: kset k v t
  end.

Fixpoint kdel (k : string) (h : kws) : kws :=
  match h with
  | [] => []
  | (k', v') :: t => if String.eqb k k' then kdel k t else (k', v') :: kdel k t
  end.

(* h[k] = g(h[k]);  KeyError (None) when k is absent *)
Definition kupd (k : string) (g : A -> A) (h : kws) : option kws :=
  match kget k h with Some v => Some (kset k (g v) h) | None => None end.

(* first key of the list that is present: the if / elif chain `if 'K1' in h: .. elif 'K2' in h: ..` *)
Fixpoint first_present (keys : list string) (h : kws) : option string :=
  match keys with
  | [] => None
  | k :: ks => if khas k h then Some k else first_present ks h
  end.

Definition ksetall (kvs : list (string * A)) (h : kws) : kws :=
  fold_left (fun h kv => kset (fst kv) (snd kv) h) kvs h.

Definition kdelall (ks : list string) (h : kws) : kws :=
  fold_left (fun h k => kdel k h) ks h.

Lemma kget_kset (k k' : string) (v : A) (h : kws) :
  kget k' (kset k v h) = if String.eqb k' k then Some v else kget k' h.
Proof.
  induction h as [|[k0 v0] t IH]; cbn [kset kget]; [reflexivity|].
  destruct (String.eqb_spec k k0) as [<-|N]; cbn [kget].
  - destruct (String.eqb k' k); reflexivity.
  - rewrite IH. destruct (String.eqb_spec k' k0) as [->|]; [|reflexivity].
    destruct (String.eqb_spec k0 k); [congruence | reflexivity].
Qed.

Lemma kget_kset_same k v h : kget k (kset k v h) = Some v.
Proof. rewrite kget_kset, String.eqb_refl. reflexivity. Qed.

Lemma kget_kset_other k k' v h : k' <> k -> kget k' (kset k v h) = kget k' h.
Proof. intros N. rewrite kget_kset. apply String.eqb_neq in N. rewrite N. reflexivity. Qed.

Lemma kget_kdel (k k' : string) (h : kws) :
  kget k' (kdel k h) = if String.eqb k' k then None else kget k' h.
Proof.
  induction h as [|[k0 v0] t IH]; cbn [kdel kget]; [destruct (String.eqb k' k); reflexivity|].
  destruct (String.eqb_spec k k0) as [<-|N]; cbn [kget]; rewrite IH.
  - destruct (String.eqb k' k); reflexivity.
  - destruct (String.eqb_spec k' k0) as [->|]; [|reflexivity].
    destruct (String.eqb_spec k0 k); [congruence | reflexivity].
Qed.

Lemma kget_kdelall (ks : list string) : forall (k' : string) (h : kws),
  kget k' (kdelall ks h) = if existsb (String.eqb k') ks then None else kget k' h.
Proof.
  unfold kdelall. induction ks as [|k ks IH]; intros k' h; cbn [fold_left existsb].
  - reflexivity.
  - rewrite IH, kget_kdel. destruct (String.eqb k' k); cbn [orb].
    + destruct (existsb (String.eqb k') ks); reflexivity.
    + reflexivity.
Qed.

Lemma khas_kset k k' v h : khas k' (kset k v h) = (String.eqb k' k || khas k' h)%bool.
Proof. unfold khas. rewrite kget_kset. destruct (String.eqb k' k); reflexivity. Qed.

Lemma khas_kset_present k k' v h : khas k h = true -> khas k' (kset k v h) = khas k' h.
Proof.
  intros H. rewrite khas_kset. destruct (String.eqb k' k) eqn:E; [|reflexivity].
  apply String.eqb_eq in E. subst k'. rewrite H. reflexivity.
Qed.

Lemma kupd_some k g h h' : kupd k g h = Some h' ->
  khas k h = true /\ forall k', kget k' h' = if String.eqb k' k then option_map g (kget k' h) else kget k' h.
Proof.
  unfold kupd, khas. destruct (kget k h) as [v|] eqn:E; [|discriminate].
  intros H. injection H as <-. split; [reflexivity|]. intros k'. rewrite kget_kset.
  destruct (String.eqb k' k) eqn:E'; [|reflexivity].
  apply String.eqb_eq in E'. subst k'. rewrite E. reflexivity.
Qed.

Lemma kupd_present k g h : khas k h = true -> exists h', kupd k g h = Some h'.
Proof. unfold kupd, khas. destruct (kget k h); [eauto|discriminate]. Qed.

Lemma kupd_khas k g h h' k' : kupd k g h = Some h' -> khas k' h' = khas k' h.
Proof.
  intros H. destruct (kupd_some _ _ _ _ H) as [_ G]. unfold khas. rewrite G.
  destruct (String.eqb k' k); [|reflexivity]. destruct (kget k' h); reflexivity.
Qed.

Lemma first_present_ext keys h h' : (forall k, khas k h' = khas k h) ->
  first_present keys h' = first_present keys h.
Proof. intros E. induction keys as [|k ks IH]; cbn [first_present]; [reflexivity|]. rewrite E, IH. reflexivity. Qed.

Lemma first_present_in keys h k : first_present keys h = Some k -> In k keys /\ khas k h = true.
Proof.
  induction keys as [|k0 ks IH]; cbn [first_present]; [discriminate|].
  destruct (khas k0 h) eqn:E.
  - intros H. injection H as <-. split; [left; reflexivity|exact E].
  - intros H. destruct (IH H). split; [right; assumption|assumption].
Qed.

Lemma first_present_exists keys h k : In k keys -> khas k h = true -> exists k', first_present keys h = Some k'.
Proof.
  induction keys as [|k0 ks IH]; cbn [first_present In]; [tauto|].
  intros [->|Hin] Hk.
  - rewrite Hk. eauto.
  - destruct (khas k0 h); [eauto|auto].
Qed.

End Kw.
Arguments kws A : clear implicits.
