(* List facts that the standard library of Coq 8.16 lacks, by topic: NoDup; filter, existsb, forallb; flat_map and
   concat; nth, firstn, combine, Forall2; fold_left. *)
From Coq Require Import List ZArith Lia Permutation.
Import ListNotations.

Lemma NoDup_app_intro {A} (l1 l2 : list A) :
  NoDup l1 -> NoDup l2 -> (forall x, In x l1 -> ~ In x l2) -> NoDup (l1 ++ l2).
Proof.
  induction 1 as [|a l1 Ha _ IH]; intros N2 D; [exact N2|]. cbn [app]. constructor.
  - rewrite in_app_iff. intros [Hin|Hin]; [contradiction|]. exact (D a (or_introl eq_refl) Hin).
  - apply IH; [exact N2|]. intros x Hx. apply D. now right.
Qed.

Lemma NoDup_app_inv {A} (l l' : list A) : NoDup (l ++ l') -> NoDup l /\ NoDup l'.
Proof.
  induction l as [|a l IH]; cbn [app]; intros H; [split; [constructor | exact H]|].
  inversion H as [|? ? Ha Hl]; subst. destruct (IH Hl) as (H1 & H2). split; [|exact H2].
  constructor; [|exact H1]. intros Hin. apply Ha, in_or_app. left. exact Hin.
Qed.

Lemma NoDup_flat_map_intro {A B} (f : A -> list B) (l : list A) :
  NoDup l -> (forall x, In x l -> NoDup (f x)) ->
  (forall x y z, In x l -> In y l -> In z (f x) -> In z (f y) -> x = y) ->
  NoDup (flat_map f l).
Proof.
  induction l as [|a l IH]; intros Hl Hf Hdis; cbn [flat_map]; [constructor|].
  inversion Hl as [|a' l' Ha Hl']; subst. apply NoDup_app_intro.
  - apply Hf. left. reflexivity.
  - apply IH; [exact Hl' | |].
    + intros x Hx. apply Hf. right. exact Hx.
    + intros x y z Hx Hy. apply Hdis; right; assumption.
  - intros z Hz Hz'. apply in_flat_map in Hz'. destruct Hz' as [y [Hy Hzy]].
    assert (a = y) as E by (apply (Hdis a y z); [left; reflexivity | right; exact Hy | exact Hz | exact Hzy]).
    subst y. contradiction.
Qed.

Lemma NoDup_map_inj {A B} (f : A -> B) (l : list A) a b :
  NoDup (map f l) -> In a l -> In b l -> f a = f b -> a = b.
Proof.
  induction l as [|x l IH]; intros Hnd Ha Hb E; [destruct Ha|].
  cbn [map] in Hnd. inversion Hnd as [|? ? Hx Hl]; subst.
  destruct Ha as [<-|Ha], Hb as [<-|Hb]; auto.
  - exfalso. apply Hx. rewrite E. apply in_map, Hb.
  - exfalso. apply Hx. rewrite <- E. apply in_map, Ha.
Qed.

Lemma NoDup_map_filter {A B} (f : A -> B) p (l : list A) : NoDup (map f l) -> NoDup (map f (filter p l)).
Proof.
  induction l as [|x l IH]; cbn [map filter]; intros H; [constructor|]. inversion H as [|? ? Hx Hl]; subst.
  destruct (p x); cbn [map]; [constructor|]; auto.
  intros Hin. apply Hx. apply in_map_iff in Hin as (y & <- & Hy). apply filter_In in Hy. apply in_map, Hy.
Qed.

Lemma NoDup_map_fst_combine {A B} (a : list A) (b : list B) : NoDup a -> NoDup (map fst (combine a b)).
Proof.
  revert b; induction a as [|y a IH]; intros [|z b] Hnd; cbn [combine map fst]; try constructor; inversion Hnd; subst; auto.
  intro H. apply in_map_iff in H. destruct H as [[y' z'] [<- H]]. apply in_combine_l in H. auto.
Qed.

Lemma NoDup_map_combine {A B C} (f : B -> C) (l : list A) (l' : list B) :
  NoDup (map f l') -> NoDup (map (fun p => f (snd p)) (combine l l')).
Proof.
  revert l'. induction l as [|a l IH]; intros [|b l'] H; cbn [combine map snd]; try constructor.
  - inversion H as [|? ? Hb _]; subst. intros Hin. apply Hb. apply in_map_iff in Hin as ((a0 & b0) & E & Hin).
    apply in_combine_r in Hin. rewrite <- E. apply in_map, Hin.
  - apply IH. inversion H; assumption.
Qed.

Lemma NoDup_concat_each {A B} (f : A -> B) (gs : list (list A)) g :
  NoDup (map f (concat gs)) -> In g gs -> NoDup (map f g).
Proof.
  induction gs as [|h gs IH]; intros Hnd Hg; [destruct Hg|].
  cbn [concat] in Hnd. rewrite map_app in Hnd. apply NoDup_app_inv in Hnd as (Hh & Hgs).
  destruct Hg as [->|Hg]; [exact Hh | exact (IH Hgs Hg)].
Qed.


Lemma filter_map_comm {A B} (f : A -> B) (p : B -> bool) (l : list A) :
  filter p (map f l) = map f (filter (fun x => p (f x)) l).
Proof.
  induction l as [|a l IH]; cbn [map filter]; [reflexivity|].
  destruct (p (f a)); cbn [map]; rewrite IH; reflexivity.
Qed.

Lemma filter_true {A} (f : A -> bool) (l : list A) :
  (forall a, In a l -> f a = true) -> filter f l = l.
Proof.
  induction l as [|a l IH]; cbn [filter]; intros H; [reflexivity|].
  rewrite (H a (or_introl eq_refl)), IH; [reflexivity|]. intros b Hb. apply H. right. exact Hb.
Qed.

Lemma filter_repeat {A} (p : A -> bool) x k : filter p (repeat x k) = if p x then repeat x k else [].
Proof. induction k as [|k IH]; cbn [repeat filter]; [destruct (p x); reflexivity|]. rewrite IH. destruct (p x); reflexivity. Qed.

Lemma filter_le_length {A} (f : A -> bool) l : length (filter f l) <= length l.
Proof. induction l as [|h t IH]; cbn [filter length]; [lia|]. destruct (f h); cbn [length]; lia. Qed.

Lemma filter_lt_length {A} (f : A -> bool) l x :
  In x l -> f x = false -> length (filter f l) < length l.
Proof.
  induction l as [|h t IH]; intros Hin Hf; cbn [filter length In] in *; [contradiction|].
  pose proof (filter_le_length f t) as Hle.
  destruct Hin as [->|Hin].
  - rewrite Hf. lia.
  - specialize (IH Hin Hf). destruct (f h); cbn [length]; lia.
Qed.

Lemma existsb_ext {A} (f g : A -> bool) (l : list A) :
  (forall a, f a = g a) -> existsb f l = existsb g l.
Proof. intros H. induction l as [|a l IH]; cbn [existsb]; [reflexivity|]. rewrite H, IH. reflexivity. Qed.

Lemma existsb_eqb_In {A} (eqb : A -> A -> bool) (Heq : forall x y, eqb x y = true <-> x = y) x l :
  existsb (eqb x) l = true <-> In x l.
Proof.
  rewrite existsb_exists. split.
  - intros [y [Hy E]]. apply Heq in E. subst. exact Hy.
  - intros H. exists x. split; [exact H|apply Heq; reflexivity].
Qed.

Lemma existsb_nth_error {A} (f : A -> bool) l :
  existsb f l = true <-> exists j x, nth_error l j = Some x /\ f x = true.
Proof.
  rewrite existsb_exists. split.
  - intros (x & Hin & Hf). apply In_nth_error in Hin as [j Hj]. eauto.
  - intros (j & x & Hj & Hf). exists x; split; auto. eapply nth_error_In; eauto.
Qed.

Lemma forallb_nth {A} (f : A -> bool) l i x :
  forallb f l = true -> nth_error l i = Some x -> f x = true.
Proof.
  intros Hf Hn. rewrite forallb_forall in Hf. apply Hf. eapply nth_error_In; eauto.
Qed.

Lemma forallb_false_nth {A} (f : A -> bool) l :
  forallb f l = false -> exists j x, nth_error l j = Some x /\ f x = false.
Proof.
  induction l as [|h t IH]; cbn [forallb]; [discriminate|]. destruct (f h) eqn:E; cbn [andb]; intros H.
  - destruct (IH H) as (j & x & Hj & Hx). exists (S j), x. auto.
  - exists 0, h. auto.
Qed.

Lemma nth_dec {A} (p : A -> bool) l :
  (exists j x, nth_error l j = Some x /\ p x = true) \/ (forall j x, nth_error l j = Some x -> p x = false).
Proof.
  induction l as [|h t [(j & x & Hj & Hx)|IH]].
  - right. intros [|j] x; discriminate.
  - left. exists (S j), x. auto.
  - destruct (p h) eqn:E; [left; exists 0, h; auto|].
    right. intros [|j] x; cbn [nth_error]; [intros [= <-]; exact E|apply IH].
Qed.


Lemma flat_map_flat_map {A B C} (h : B -> list C) (g : A -> list B) l :
  flat_map h (flat_map g l) = flat_map (fun a => flat_map h (g a)) l.
Proof. induction l as [|a l IH]; cbn [flat_map]; [reflexivity|]. rewrite flat_map_app, IH. reflexivity. Qed.

Lemma flat_map_map_comm {A B C} (phi : B -> C) (f : A -> list B) (f' : A -> list C) l :
  (forall x, In x l -> f' x = map phi (f x)) -> flat_map f' l = map phi (flat_map f l).
Proof.
  induction l as [|a l IH]; intros H; cbn [flat_map]; [reflexivity|].
  rewrite map_app, H by (left; reflexivity). f_equal. apply IH. intros x Hx. apply H. right. exact Hx.
Qed.

Lemma length_flat_map_sum {A B} (f : A -> list B) (l : list A) :
  Z.of_nat (length (flat_map f l)) = fold_right Z.add 0%Z (map (fun x => Z.of_nat (length (f x))) l).
Proof.
  induction l as [|a l IH]; cbn [flat_map map fold_right]; [reflexivity|].
  rewrite app_length, Nat2Z.inj_add, IH. reflexivity.
Qed.

Lemma length_flat_map_const {A B} (f : A -> list B) (l : list A) n :
  (forall x, In x l -> Z.of_nat (length (f x)) = n) ->
  Z.of_nat (length (flat_map f l)) = (Z.of_nat (length l) * n)%Z.
Proof.
  induction l as [|a l IH]; intros Hf; cbn [flat_map length]; [lia|].
  rewrite app_length, Nat2Z.inj_add, IH by (intros x Hx; apply Hf; right; exact Hx).
  rewrite (Hf a) by (left; reflexivity). lia.
Qed.

Lemma nth_flat_map_const {A B} (f : A -> list B) c (a0 : A) :
  (forall a, length (f a) = c) ->
  forall l r j d, r < length l -> j < c ->
  nth (r * c + j) (flat_map f l) d = nth j (f (nth r l a0)) d.
Proof.
  intros Hf. induction l as [|a l IH]; intros r j d Hr Hj; [cbn [length] in Hr; lia|].
  cbn [flat_map]. destruct r as [|r].
  - cbn [Nat.mul Nat.add nth]. apply app_nth1. rewrite Hf. exact Hj.
  - cbn [nth length] in *. replace (S r * c + j) with (length (f a) + (r * c + j)) by (rewrite Hf; lia).
    rewrite app_nth2_plus. apply IH; lia.
Qed.

Lemma concat_map_rev_rev {A} (S : list (list A)) : Permutation (concat (map (@rev A) (rev S))) (concat S).
Proof.
  induction S as [|g S IH]; cbn [rev concat]; [constructor|].
  rewrite map_app, concat_app. cbn [map concat]. rewrite app_nil_r, IH.
  rewrite Permutation_app_comm. apply Permutation_app_tail. symmetry. apply Permutation_rev.
Qed.


Lemma nth_map_lt {A B} (f : A -> B) l n d d' : n < length l -> nth n (map f l) d = f (nth n l d').
Proof.
  intros H. rewrite (nth_indep (map f l) d (f d')) by (rewrite map_length; exact H).
  apply map_nth.
Qed.

Lemma map_seq_nth {A B} (l : list A) (d : A) : forall (f : nat -> B) (g : A -> B),
  (forall i, i < length l -> f i = g (nth i l d)) -> map f (seq 0 (length l)) = map g l.
Proof.
  induction l as [|x l IH]; intros f g H; [reflexivity|].
  cbn [length seq map]. rewrite <- seq_shift, map_map. f_equal.
  - apply (H 0). cbn [length]. lia.
  - apply IH. intros i Hi. apply (H (S i)). cbn [length]. lia.
Qed.

Lemma nth_app_mid {A} (pre : list A) h t : nth_error (pre ++ h :: t) (length pre) = Some h.
Proof. induction pre as [|a pre IH]; [reflexivity|exact IH]. Qed.

Lemma firstn_skipn_app {A} (l : list A) (a b : nat) :
  firstn a l ++ firstn b (skipn a l) = firstn (a + b) l.
Proof.
  revert l; induction a as [|a IH]; intros [|x l]; cbn [firstn skipn app Nat.add]; try reflexivity.
  - apply firstn_nil.
  - rewrite IH. reflexivity.
Qed.

Lemma combine_app {A B} (a a' : list A) (b b' : list B) : length a = length b ->
  combine (a ++ a') (b ++ b') = combine a b ++ combine a' b'.
Proof.
  revert b. induction a as [|x a IH]; intros [|y b] L; try discriminate L; cbn [app combine]; [reflexivity|].
  f_equal. apply IH. injection L as L. exact L.
Qed.

Lemma map_fst_combine {A B} (l1 : list A) : forall (l2 : list B), length l1 = length l2 -> map fst (combine l1 l2) = l1.
Proof.
  induction l1 as [|a l1 IH]; intros [|b l2] L; try discriminate L; [reflexivity|].
  cbn [combine map fst]. f_equal. apply IH. injection L as L. exact L.
Qed.

Lemma map_snd_combine {A B} (l1 : list A) : forall (l2 : list B), length l1 = length l2 -> map snd (combine l1 l2) = l2.
Proof.
  induction l1 as [|a l1 IH]; intros [|b l2] L; try discriminate L; [reflexivity|].
  cbn [combine map snd]. f_equal. apply IH. injection L as L. exact L.
Qed.

Lemma map_combine_map {A B C D} (f : B * C -> D) (g : A -> B) (h : A -> C) (l : list A) :
  map f (combine (map g l) (map h l)) = map (fun x => f (g x, h x)) l.
Proof. induction l as [|x l IH]; cbn [map combine]; [reflexivity | rewrite IH; reflexivity]. Qed.

Lemma in_combine_map {A B C} (g : A -> C) (l1 : list A) (l2 : list B) p f :
  In (p, f) (combine l1 l2) -> In (g p, f) (combine (map g l1) l2).
Proof.
  revert l2. induction l1 as [|a l1 IH]; intros l2 H; [cbn [combine In] in H; contradiction|].
  destruct l2 as [|b l2]; [cbn [combine In] in H; contradiction|].
  cbn [map combine In] in *. destruct H as [E|H]; [injection E as -> ->; now left|right; now apply IH].
Qed.

Lemma nth_error_combine {A B} (l1 : list A) : forall (l2 : list B) n a b,
  nth_error (combine l1 l2) n = Some (a, b) -> nth_error l1 n = Some a /\ nth_error l2 n = Some b.
Proof.
  induction l1 as [|x l1 IH]; intros [|y l2] n a b H; try (destruct n; discriminate).
  destruct n as [|n]; cbn [combine nth_error] in *.
  - inversion H; subst. split; reflexivity.
  - apply IH. assumption.
Qed.

Lemma Forall2_length {A B} (R : A -> B -> Prop) l1 l2 : Forall2 R l1 l2 -> length l1 = length l2.
Proof. induction 1; cbn [length]; congruence. Qed.

Lemma Forall2_nth {A B} (R : A -> B -> Prop) l1 l2 n a b :
  Forall2 R l1 l2 -> nth_error l1 n = Some a -> nth_error l2 n = Some b -> R a b.
Proof.
  intros H. revert n. induction H as [|x y l1 l2 Hxy H IH]; intros n Ha Hb.
  - destruct n; discriminate.
  - destruct n as [|n]; cbn [nth_error] in *.
    + inversion Ha; inversion Hb; subst. assumption.
    + eapply IH; eassumption.
Qed.


Lemma fold_left_inv {A B} (I : A -> Prop) (f : A -> B -> A) (l : list B) :
  (forall a b, In b l -> I a -> I (f a b)) -> forall a, I a -> I (fold_left f l a).
Proof.
  induction l as [|b l IH]; intros Hf a Ha; [exact Ha|]. cbn [fold_left].
  apply IH; [intros a' b' Hb'; apply Hf; now right|]. apply Hf; [now left|exact Ha].
Qed.

Lemma fold_left_map {A B C} (f : A -> C -> A) (g : B -> C) (l : list B) : forall a,
  fold_left f (map g l) a = fold_left (fun a b => f a (g b)) l a.
Proof. induction l as [|b l IH]; intros a; cbn [map fold_left]; [reflexivity | apply IH]. Qed.
