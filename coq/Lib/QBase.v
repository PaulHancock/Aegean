(* Boolean comparisons on Q used by the generated leaves of the Q back end (tools/points_c13.py), with their
   readings as propositions, and the case forms of Qmin, Qmax and Qabs that proofs about those leaves use. *)
From Coq Require Import ZArith QArith Qabs Qminmax Bool Lia Lqa.
Open Scope Q_scope.

Definition Qleb (a b : Q) : bool := Qle_bool a b.
Definition Qltb (a b : Q) : bool := negb (Qle_bool b a).

Lemma Qleb_le : forall a b, Qleb a b = true <-> a <= b.
Proof. intros a b. unfold Qleb. apply Qle_bool_iff. Qed.

Lemma Qltb_lt : forall a b, Qltb a b = true <-> a < b.
Proof.
  intros a b. unfold Qltb. rewrite negb_true_iff, <- not_true_iff_false, Qle_bool_iff.
  split; [apply Qnot_le_lt | apply Qlt_not_le].
Qed.

Lemma Qltb_false : forall a b, Qltb a b = false <-> b <= a.
Proof.
  intros a b. rewrite <- not_true_iff_false, Qltb_lt. split; [apply Qnot_lt_le | apply Qle_not_lt].
Qed.

Lemma Qleb_false : forall a b, Qleb a b = false <-> b < a.
Proof. intros a b. rewrite <- Qltb_lt. unfold Qltb, Qleb. symmetry. apply negb_true_iff. Qed.


Lemma Qltb_opp : forall a b, Qltb (- a) (- b) = Qltb b a.
Proof. intros a b. apply eq_true_iff_eq. rewrite !Qltb_lt. split; intro H; lra. Qed.

Lemma Qmin_cases : forall a b, (a <= b /\ Qmin a b == a) \/ (b <= a /\ Qmin a b == b).
Proof. intros a b. destruct (Q.min_spec a b) as [[H E]|[H E]]; [left | right]; split; try exact E; lra. Qed.

Lemma Qmax_cases : forall a b, (a <= b /\ Qmax a b == b) \/ (b <= a /\ Qmax a b == a).
Proof. intros a b. destruct (Q.max_spec a b) as [[H E]|[H E]]; [left | right]; split; try exact E; lra. Qed.

Lemma Qabs_opp_eq : forall a, Qabs (- a) = Qabs a.
Proof. intros [n d]. unfold Qabs, Qopp. cbn [Qnum Qden]. rewrite Z.abs_opp. reflexivity. Qed.
