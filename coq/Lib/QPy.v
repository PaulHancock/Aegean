(* Executable rational helpers used by the Q back end of the translator (tools/points_c05.py):
   Python's min/max, //, int(), round() and comparisons on exact rationals, and the lemmas that
   carry them to Z on integral arguments.  Axiom-free. *)
From Coq Require Import ZArith QArith Qround Lia Lqa Bool.
From Aegean Require Lib.QBase.
Open Scope Q_scope.

Definition Qleb (a b : Q) : bool := Qle_bool a b.
Definition Qltb (a b : Q) : bool := negb (Qle_bool b a).
(* Python: min(a, b) returns b only when b < a; max(a, b) returns b only when b > a *)
Definition qmin (a b : Q) : Q := if Qltb b a then b else a.
Definition qmax (a b : Q) : Q := if Qltb a b then b else a.
(* Python a // b on numbers: floor of the quotient *)
Definition floordiv (a b : Q) : Q := inject_Z (Qfloor (a / b)).
(* int(q): truncation toward zero *)
Definition Qtrunc (q : Q) : Z := if Qleb 0 q then Qfloor q else Qceiling q.
(* round(q) for one argument: nearest integer, ties to the even one *)
Definition round_half_even (q : Q) : Z :=
  let f := Qfloor q in
  match Qcompare (q - inject_Z f) (1 # 2) with
  | Lt => f
  | Gt => (f + 1)%Z
  | Eq => if Z.even f then f else (f + 1)%Z
  end.

Lemma Qleb_iff : forall a b, Qleb a b = true <-> a <= b.
Proof. exact QBase.Qleb_le. Qed.

Lemma Qltb_iff : forall a b, Qltb a b = true <-> a < b.
Proof. exact QBase.Qltb_lt. Qed.

Lemma Qltb_false_iff : forall a b, Qltb a b = false <-> b <= a.
Proof. exact QBase.Qltb_false. Qed.

Lemma Qleb_false_iff : forall a b, Qleb a b = false <-> b < a.
Proof. exact QBase.Qleb_false. Qed.

Lemma Qltb_comp : forall a a' b b', a == a' -> b == b' -> Qltb a b = Qltb a' b'.
Proof.
  intros a a' b b' Ha Hb. apply eq_true_iff_eq. rewrite !Qltb_iff. rewrite Ha, Hb. reflexivity.
Qed.

Lemma Qleb_comp : forall a a' b b', a == a' -> b == b' -> Qleb a b = Qleb a' b'.
Proof.
  intros a a' b b' Ha Hb. apply eq_true_iff_eq. rewrite !Qleb_iff. rewrite Ha, Hb. reflexivity.
Qed.

Lemma Qleb_Z : forall a b : Z, Qleb (inject_Z a) (inject_Z b) = (a <=? b)%Z.
Proof.
  intros a b. apply eq_true_iff_eq. rewrite Qleb_iff, Z.leb_le, Zle_Qle. reflexivity.
Qed.

Lemma Qltb_Z : forall a b : Z, Qltb (inject_Z a) (inject_Z b) = (a <? b)%Z.
Proof.
  intros a b. apply eq_true_iff_eq. rewrite Qltb_iff, Z.ltb_lt, Zlt_Qlt. reflexivity.
Qed.

Lemma qmin_Z : forall a b : Z, qmin (inject_Z a) (inject_Z b) = inject_Z (Z.min a b).
Proof. intros a b. unfold qmin. rewrite Qltb_Z. destruct (Z.ltb_spec b a); f_equal; lia. Qed.

Lemma qmax_Z : forall a b : Z, qmax (inject_Z a) (inject_Z b) = inject_Z (Z.max a b).
Proof. intros a b. unfold qmax. rewrite Qltb_Z. destruct (Z.ltb_spec a b); f_equal; lia. Qed.

Lemma qmin_le_l : forall a b, qmin a b <= a.
Proof.
  intros a b. unfold qmin. destruct (Qltb b a) eqn:E; [|apply Qle_refl].
  apply Qltb_iff in E. apply Qlt_le_weak. exact E.
Qed.
Lemma qmin_le_r : forall a b, qmin a b <= b.
Proof.
  intros a b. unfold qmin. destruct (Qltb b a) eqn:E; [apply Qle_refl|]. apply Qltb_false_iff in E. exact E.
Qed.
Lemma qmax_ge_l : forall a b, a <= qmax a b.
Proof.
  intros a b. unfold qmax. destruct (Qltb a b) eqn:E; [|apply Qle_refl].
  apply Qltb_iff in E. apply Qlt_le_weak. exact E.
Qed.
Lemma qmax_ge_r : forall a b, b <= qmax a b.
Proof.
  intros a b. unfold qmax. destruct (Qltb a b) eqn:E; [apply Qle_refl|]. apply Qltb_false_iff in E. exact E.
Qed.

Lemma qmin_comp : forall a a' b b', a == a' -> b == b' -> qmin a b == qmin a' b'.
Proof.
  intros a a' b b' Ha Hb. unfold qmin. rewrite (Qltb_comp b b' a a' Hb Ha). destruct (Qltb b' a'); assumption.
Qed.

Lemma qmax_comp : forall a a' b b', a == a' -> b == b' -> qmax a b == qmax a' b'.
Proof.
  intros a a' b b' Ha Hb. unfold qmax. rewrite (Qltb_comp a a' b b' Ha Hb). destruct (Qltb a' b'); assumption.
Qed.

Lemma floordiv_comp : forall a a' b b', a == a' -> b == b' -> floordiv a b == floordiv a' b'.
Proof.
  intros a a' b b' Ha Hb. unfold floordiv.
  assert (H : a / b == a' / b') by (rewrite Ha, Hb; reflexivity).
  rewrite (Qfloor_comp _ _ H). reflexivity.
Qed.

Lemma floordiv_Z : forall (w : Z) (d : positive), floordiv (inject_Z w) (Zpos d # 1) = inject_Z (w / Zpos d).
Proof.
  intros w d. unfold floordiv, Qfloor, Qdiv, Qmult, Qinv, inject_Z. cbn [Qnum Qden Pos.mul].
  rewrite Z.mul_1_r. reflexivity.
Qed.

Lemma floordiv2_Z : forall w : Z, floordiv (inject_Z w) (2 # 1) = inject_Z (w / 2).
Proof. intro w. exact (floordiv_Z w 2). Qed.

Lemma Qtrunc_Z : forall z : Z, Qtrunc (inject_Z z) = z.
Proof.
  intro z. unfold Qtrunc. destruct (Qleb 0 (inject_Z z)); [apply Qfloor_Z|apply Qceiling_Z].
Qed.

Lemma Qtrunc_comp : forall a b, a == b -> Qtrunc a = Qtrunc b.
Proof.
  intros a b H. unfold Qtrunc. rewrite (Qleb_comp 0 0 a b (Qeq_refl 0) H). destruct (Qleb 0 b).
  - apply Qfloor_comp; assumption.
  - unfold Qceiling. f_equal. apply Qfloor_comp. rewrite H. reflexivity.
Qed.

Lemma round_half_even_Z : forall z : Z, round_half_even (inject_Z z) = z.
Proof.
  intro z. unfold round_half_even. rewrite Qfloor_Z.
  assert (H : inject_Z z - inject_Z z == 0) by ring.
  assert (C : Qcompare (inject_Z z - inject_Z z) (1 # 2) = Lt).
  { rewrite (Qcompare_comp _ _ H (1#2) (1#2) (Qeq_refl _)). reflexivity. }
  rewrite C. reflexivity.
Qed.

Lemma round_half_even_near : forall q, inject_Z (round_half_even q) - (1 # 2) <= q <= inject_Z (round_half_even q) + (1 # 2).
Proof.
  intro q. unfold round_half_even.
  pose proof (Qfloor_le q) as Hlo. pose proof (Qlt_floor q) as Hhi.
  rewrite inject_Z_plus in Hhi. change (inject_Z 1) with 1 in Hhi.
  destruct (Qcompare (q - inject_Z (Qfloor q)) (1 # 2)) eqn:C.
  - apply Qeq_alt in C. destruct (Z.even (Qfloor q)).
    + split; lra.
    + rewrite inject_Z_plus. change (inject_Z 1) with 1. split; lra.
  - apply Qlt_alt in C. split; lra.
  - apply Qgt_alt in C. rewrite inject_Z_plus. change (inject_Z 1) with 1. split; lra.
Qed.

Lemma inject_Z_sub : forall x y : Z, inject_Z (x - y) = inject_Z x - inject_Z y.
Proof. intros x y. unfold Qminus, Qplus, Qopp, inject_Z. cbn [Qnum Qden Pos.mul]. f_equal. ring. Qed.

(* canonical output of a rational for the harness: (numerator, denominator) in lowest terms *)
Definition qout (q : Q) : Z * Z := let r := Qred q in (Qnum r, Zpos (Qden r)).
