(* Real-number vocabulary shared by the generated (R back end) definitions, with the equations through which the
   proofs use it. *)
From Coq Require Import Reals ZArith Lra Lia Psatz.
Open Scope R_scope.

Definition rad (x : R) : R := x * PI / 180.
Definition deg (x : R) : R := x * 180 / PI.

(* numpy.arctan2 *)
Definition atan2 (y x : R) : R :=
  if Rlt_dec 0 x then atan (y / x)
  else if Rlt_dec x 0 then (if Rle_dec 0 y then atan (y / x) + PI else atan (y / x) - PI)
  else if Rlt_dec 0 y then PI / 2 else if Rlt_dec y 0 then - (PI / 2) else 0.

Definition hypot (x y : R) : R := sqrt (x * x + y * y).

Definition Rltb (a b : R) : bool := if Rlt_dec a b then true else false.
Definition Rleb (a b : R) : bool := if Rle_dec a b then true else false.

Lemma Rltb_true a b : Rltb a b = true <-> a < b.
Proof. unfold Rltb. destruct (Rlt_dec a b); split; auto; discriminate. Qed.
Lemma Rltb_false a b : Rltb a b = false <-> b <= a.
Proof. unfold Rltb. destruct (Rlt_dec a b); split; auto; try discriminate; lra. Qed.
Lemma Rleb_true a b : Rleb a b = true <-> a <= b.
Proof. unfold Rleb. destruct (Rle_dec a b); split; auto; discriminate. Qed.
Lemma Rleb_false a b : Rleb a b = false <-> b < a.
Proof. unfold Rleb. destruct (Rle_dec a b); split; auto; try discriminate; lra. Qed.

Lemma Rabs_le_inv x a : Rabs x <= a -> - a <= x <= a.
Proof. unfold Rabs. destruct (Rcase_abs x); lra. Qed.

Lemma deg_rad x : deg (rad x) = x.
Proof. unfold deg, rad. field. apply PI_neq0. Qed.
Lemma rad_deg x : rad (deg x) = x.
Proof. unfold deg, rad. field. apply PI_neq0. Qed.

Lemma rad_add a b : rad (a + b) = rad a + rad b.
Proof. unfold rad; field. Qed.
Lemma rad_sub a b : rad (a - b) = rad a - rad b.
Proof. unfold rad; field. Qed.
Lemma rad_opp a : rad (- a) = - rad a.
Proof. unfold rad; field. Qed.
Lemma rad_0 : rad 0 = 0.
Proof. unfold rad; field. Qed.
Lemma rad_90 : rad 90 = PI / 2.
Proof. unfold rad; field. Qed.
Lemma rad_180 : rad 180 = PI.
Proof. unfold rad; field. Qed.
Lemma rad_lt_iff a b : rad a < rad b <-> a < b.
Proof. unfold rad. pose proof PI_RGT_0. split; nra. Qed.
Lemma rad_le_iff a b : rad a <= rad b <-> a <= b.
Proof. unfold rad. pose proof PI_RGT_0. split; nra. Qed.

Lemma deg_0 : deg 0 = 0.
Proof. rewrite <- rad_0 at 1. apply deg_rad. Qed.
Lemma deg_PI : deg PI = 180.
Proof. rewrite <- rad_180. apply deg_rad. Qed.
Lemma deg_opp a : deg (- a) = - deg a.
Proof. unfold deg; field. apply PI_neq0. Qed.
Lemma deg_lt a b : a < b -> deg a < deg b.
Proof. intros H. apply rad_lt_iff. rewrite !rad_deg. exact H. Qed.
Lemma deg_le a b : a <= b -> deg a <= deg b.
Proof. intros H. apply rad_le_iff. rewrite !rad_deg. exact H. Qed.

Lemma sin_rad_pos r : 0 < r < 180 -> 0 < sin (rad r).
Proof. intros Hr. pose proof PI_RGT_0. apply sin_gt_0; unfold rad; nra. Qed.
Lemma cos_rad_pos d : -90 < d < 90 -> 0 < cos (rad d).
Proof. intros Hd. pose proof PI_RGT_0. apply cos_gt_0; unfold rad; nra. Qed.

Lemma period_Z (f : R -> R) : (forall x n, f (x + 2 * INR n * PI) = f x) -> forall x k, f (x + 2 * IZR k * PI) = f x.
Proof.
  intros H x k. destruct (Z_le_gt_dec 0 k) as [Hk|Hk].
  - rewrite <- (Z2Nat.id k), <- INR_IZR_INZ by exact Hk. apply H.
  - rewrite <- (H _ (Z.to_nat (- k))). f_equal. rewrite INR_IZR_INZ, Z2Nat.id, opp_IZR by lia. ring.
Qed.
Lemma rad_turns x k : rad (x + 360 * IZR k) = rad x + 2 * IZR k * PI.
Proof. unfold rad; field. Qed.
Lemma cos_rad_period x k : cos (rad (x + 360 * IZR k)) = cos (rad x).
Proof. rewrite rad_turns. apply (period_Z cos cos_period). Qed.
Lemma sin_rad_period x k : sin (rad (x + 360 * IZR k)) = sin (rad x).
Proof. rewrite rad_turns. apply (period_Z sin sin_period). Qed.
Lemma cos_half_turns k : Rabs (cos (rad (180 * IZR k))) = 1.
Proof.
  assert (Hs : sin (rad (180 * IZR k)) = 0) by (apply sin_eq_0_1; exists k; unfold rad; field).
  pose proof (sin2_cos2 (rad (180 * IZR k))) as H. rewrite Hs in H. unfold Rsqr in H.
  unfold Rabs. destruct (Rcase_abs _); nra.
Qed.
Lemma cos_rad_m90 x : cos (rad (x - 90)) = sin (rad x).
Proof. rewrite rad_sub, rad_90, cos_minus, cos_PI2, sin_PI2. ring. Qed.
Lemma sin_rad_m90 x : sin (rad (x - 90)) = - cos (rad x).
Proof. rewrite rad_sub, rad_90, sin_minus, cos_PI2, sin_PI2. ring. Qed.
Lemma cos_rad_p90 x : cos (rad (x + 90)) = - sin (rad x).
Proof. rewrite rad_add, rad_90, cos_plus, cos_PI2, sin_PI2. ring. Qed.
Lemma sin_rad_p90 x : sin (rad (x + 90)) = cos (rad x).
Proof. rewrite rad_add, rad_90, sin_plus, cos_PI2, sin_PI2. ring. Qed.

Lemma asin_sin_deg d : -90 <= d <= 90 -> deg (asin (sin (rad d))) = d.
Proof. intros Hd. rewrite asin_sin; [apply deg_rad | pose proof PI_RGT_0; unfold rad; split; nra]. Qed.

Lemma hypot_nonneg x y : 0 <= hypot x y.
Proof. apply sqrt_pos. Qed.
Lemma hypot_sqr x y : hypot x y * hypot x y = x * x + y * y.
Proof. apply sqrt_sqrt. nra. Qed.
Lemma hypot_sq a b : sqrt (a ^ 2 + b ^ 2) = hypot a b.
Proof. unfold hypot. f_equal. ring. Qed.
Lemma hypot_eq h x y : 0 <= h -> h * h = x * x + y * y -> hypot x y = h.
Proof. intros Hh E. unfold hypot. rewrite <- E. apply sqrt_square, Hh. Qed.
Lemma hypot_flip a b c d : hypot (a - b) (c - d) = hypot (b - a) (d - c).
Proof. unfold hypot. f_equal. ring. Qed.
Lemma hypot_pos_iff x y : 0 < hypot x y <-> 0 < x * x + y * y.
Proof. pose proof (hypot_nonneg x y). pose proof (hypot_sqr x y). split; nra. Qed.

Lemma true_scale_iff_no_rotation a c : Rabs a = hypot a c <-> c = 0.
Proof.
  unfold hypot. split.
  - intros H. assert (H2 : Rabs a * Rabs a = a * a + c * c).
    { rewrite H at 1. rewrite H. apply sqrt_sqrt. nra. }
    assert (Rabs a * Rabs a = a * a) by (unfold Rabs; destruct (Rcase_abs a); ring). nra.
  - intros ->. rewrite Rmult_0_r, Rplus_0_r. symmetry. fold (Rsqr a). apply sqrt_Rsqr_abs.
Qed.
Lemma hypot_pos_cases x y : 0 < hypot x y \/ (x = 0 /\ y = 0).
Proof. destruct (Rle_lt_dec (x * x + y * y) 0); [right; split; nra | left; apply hypot_pos_iff; assumption]. Qed.

Lemma atan2_0_l x : 0 <= x -> atan2 0 x = 0.
Proof.
  intros Hx. unfold atan2, Rdiv. rewrite Rmult_0_l, atan_0.
  destruct (Rlt_dec 0 x); [reflexivity|]. destruct (Rlt_dec x 0); [lra|]. destruct (Rlt_dec 0 0); [lra | reflexivity].
Qed.
Lemma atan2_0_neg x : x < 0 -> atan2 0 x = PI.
Proof.
  intros Hx. unfold atan2, Rdiv. rewrite Rmult_0_l, atan_0.
  destruct (Rlt_dec 0 x); [lra|]. destruct (Rlt_dec x 0); [|lra]. destruct (Rle_dec 0 0); lra.
Qed.
Lemma atan2_pos_0 y : 0 < y -> atan2 y 0 = PI / 2.
Proof. intros Hy. unfold atan2. destruct (Rlt_dec 0 0); [lra|]. destruct (Rlt_dec 0 y); [reflexivity | lra]. Qed.
Lemma atan2_neg_0 y : y < 0 -> atan2 y 0 = - (PI / 2).
Proof.
  intros Hy. unfold atan2. destruct (Rlt_dec 0 0); [lra|]. destruct (Rlt_dec 0 y); [lra|].
  destruct (Rlt_dec y 0); [reflexivity | lra].
Qed.

Lemma atan2_polar_dec x y : hypot x y * cos (atan2 y x) = x /\ hypot x y * sin (atan2 y x) = y.
Proof.
  unfold atan2.
  (* for x <> 0, with t = y / x: hypot x y = |x| sqrt (1 + t^2), and cos (atan t), sin (atan t) are 1, t over that root *)
  assert (Hs : x <> 0 -> 0 < sqrt (1 + (y / x)²) /\ forall k, 0 <= k -> k * k = x * x ->
               hypot x y = k * sqrt (1 + (y / x)²)).
  { intros Hx. assert (H1 : 0 < 1 + (y / x)²) by (pose proof (Rle_0_sqr (y / x)); lra).
    split; [apply sqrt_lt_R0, H1|]. intros k Hk Hkk. apply hypot_eq; [apply Rmult_le_pos; [exact Hk | apply sqrt_pos]|].
    transitivity (k * k * (sqrt (1 + (y / x)²) * sqrt (1 + (y / x)²))); [ring|].
    rewrite sqrt_sqrt, Hkk by lra. unfold Rsqr. field. exact Hx. }
  destruct (Rlt_dec 0 x) as [Hx|Hx]; [|destruct (Rlt_dec x 0) as [Hx'|Hx']].
  - destruct Hs as [H0 H]; [lra|]. rewrite (H x), cos_atan, sin_atan by lra. split; field; lra.
  - destruct Hs as [H0 H]; [lra|]. rewrite (H (- x)) by lra.
    destruct (Rle_dec 0 y); rewrite ?cos_plus, ?sin_plus, ?cos_minus, ?sin_minus, cos_PI, sin_PI, cos_atan, sin_atan;
      split; field; lra.
  - replace x with 0 by lra. clear. destruct (Rlt_dec 0 y) as [Hy|Hy]; [|destruct (Rlt_dec y 0) as [Hy'|Hy']].
    + rewrite (hypot_eq y), cos_PI2, sin_PI2 by lra. lra.
    + rewrite (hypot_eq (- y)), cos_neg, sin_neg, cos_PI2, sin_PI2 by lra. lra.
    + replace y with 0 by lra. rewrite (hypot_eq 0) by lra. lra.
Qed.

Lemma atan2_rotate x y b :
  hypot x y * cos (atan2 y x - b) = x * cos b + y * sin b /\ hypot x y * sin (atan2 y x - b) = y * cos b - x * sin b.
Proof.
  destruct (atan2_polar_dec x y) as [Hc Hs]. rewrite cos_minus, sin_minus.
  set (h := hypot x y) in *. set (f := atan2 y x) in *. rewrite <- Hc, <- Hs. split; ring.
Qed.

Lemma atan2_range y x : - PI < atan2 y x <= PI.
Proof.
  pose proof PI_RGT_0 as HPI. pose proof (atan_bound (y / x)) as Hb. unfold atan2.
  destruct (Rlt_dec 0 x) as [Hx|Hx]; [lra|]. destruct (Rlt_dec x 0) as [Hx'|Hx'].
  - assert (Hi : / x < 0) by (apply Rinv_lt_0_compat, Hx'). unfold Rdiv in *.
    destruct (Rle_dec 0 y) as [Hy|Hy].
    + destruct (Req_dec y 0) as [->|Hy0]; [rewrite Rmult_0_l, atan_0; lra|].
      assert (H : atan (y * / x) < atan 0) by (apply atan_increasing; nra). rewrite atan_0 in H. lra.
    + assert (H : atan 0 < atan (y * / x)) by (apply atan_increasing; nra). rewrite atan_0 in H. lra.
  - destruct (Rlt_dec 0 y); [lra|]. destruct (Rlt_dec y 0); lra.
Qed.

Lemma cos_sin_inj a b : - PI < a <= PI -> - PI < b <= PI -> cos a = cos b -> sin a = sin b -> a = b.
Proof.
  intros Ha Hb Hc Hs.
  assert (Hn : forall t, - PI < t < 0 -> sin t < 0) by (intros t Ht; apply sin_lt_0_var; lra).
  assert (Hp : forall t, 0 <= t <= PI -> 0 <= sin t) by (intros t Ht; apply sin_ge_0; lra).
  destruct (Rle_dec 0 a) as [Pa|Na], (Rle_dec 0 b) as [Pb|Nb].
  - apply cos_inj; lra.
  - specialize (Hp a). specialize (Hn b). lra.
  - specialize (Hp b). specialize (Hn a). lra.
  - assert (- a = - b) by (apply cos_inj; rewrite ?cos_neg; lra). lra.
Qed.

Lemma atan2_polar_trig k a : 0 < k ->
  cos (atan2 (k * sin a) (k * cos a)) = cos a /\ sin (atan2 (k * sin a) (k * cos a)) = sin a.
Proof.
  intros Hk. destruct (atan2_polar_dec (k * cos a) (k * sin a)) as [Hc Hs].
  rewrite (hypot_eq k) in Hc, Hs by (pose proof (sin2_cos2 a) as H; unfold Rsqr in H; nra). split; nra.
Qed.
Lemma atan2_polar k a : 0 < k -> - PI < a <= PI -> atan2 (k * sin a) (k * cos a) = a.
Proof.
  intros Hk Ha. destruct (atan2_polar_trig k a Hk). apply cos_sin_inj; [apply atan2_range | exact Ha | assumption..].
Qed.
Lemma atan2_polar_deg k t : 0 < k -> -180 < t <= 180 -> deg (atan2 (k * sin (rad t)) (k * cos (rad t))) = t.
Proof.
  intros Hk Ht. rewrite atan2_polar; [apply deg_rad | exact Hk | pose proof PI_RGT_0; unfold rad; split; nra].
Qed.

Lemma atan2_pos_y y x : 0 < y -> 0 < atan2 y x < PI.
Proof.
  intros Hy. destruct (atan2_polar_dec x y) as [_ Hs]. pose proof (hypot_nonneg x y). pose proof (atan2_range y x).
  assert (Hp : 0 < sin (atan2 y x)) by nra.
  split; apply Rnot_le_lt; intros Hn.
  - destruct (Req_dec (atan2 y x) 0) as [E|E]; [rewrite E, sin_0 in Hp; lra|].
    assert (sin (atan2 y x) < 0) by (apply sin_lt_0_var; lra). lra.
  - replace (atan2 y x) with PI in Hp by lra. rewrite sin_PI in Hp. lra.
Qed.
Lemma atan2_neg_y y x : y < 0 -> - PI < atan2 y x < 0.
Proof.
  intros Hy. destruct (atan2_polar_dec x y) as [_ Hs]. pose proof (hypot_nonneg x y). pose proof (atan2_range y x).
  split; [lra|]. apply Rnot_le_lt; intros Hn.
  assert (0 <= sin (atan2 y x)) by (apply sin_ge_0; lra). nra.
Qed.
Lemma atan2_nonneg y x : 0 <= y -> 0 <= atan2 y x <= PI.
Proof.
  pose proof PI_RGT_0. intros [Hy| <-]; [pose proof (atan2_pos_y y x Hy); lra|].
  destruct (Rle_dec 0 x); [rewrite atan2_0_l | rewrite atan2_0_neg]; lra.
Qed.
Lemma atan2_acos s c : 0 <= s -> s * s + c * c = 1 -> atan2 s c = acos c.
Proof.
  intros Hs Hu. destruct (atan2_polar_dec c s) as [Hc _]. rewrite (hypot_eq 1), Rmult_1_l in Hc by lra.
  rewrite <- Hc at 2. symmetry. apply acos_cos, atan2_nonneg, Hs.
Qed.
