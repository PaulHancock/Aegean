(* Spherical geometry over R for the generated angle_tools functions (Gen/Sphere.v):
   gcd (atan2 / Vincenty form on the sphere), bear (position angle), translate (destination point).
   gcd_eq, bear_eq, translate_eq are the only lemmas that look inside the generated text; they give the normal forms
   sep_y, sep_x, sep_z, bear_y, bear_x, tr_factor, tr_y, tr_x.  gcd_acos (gcd is the angle between the unit vectors)
   is the one bridge from the atan2 form to the vectors: every other fact about gcd, the haversine form included, is
   derived from it.  Between the leaves and the theorems about them lies plain vector algebra on unit vectors of R^3
   (dot, cross, the tangent frame north / east).  Axioms: the real-number axioms of the standard library only. *)
From Coq Require Import Reals Lra Psatz.
From Aegean Require Import Lib.RBase Gen.Sphere.
Open Scope R_scope.

Definition vec : Type := (R * R * R)%type.
Definition dot (u v : vec) : R :=
  let '(a, b, c) := u in let '(d, e, f) := v in a * d + b * e + c * f.
Definition uvec (ra dec : R) : vec :=
  (cos (rad dec) * cos (rad ra), cos (rad dec) * sin (rad ra), sin (rad dec)).
(* local tangent frame at (ra, dec): unit vectors towards increasing dec and increasing ra *)
Definition north (ra dec : R) : vec :=
  (- sin (rad dec) * cos (rad ra), - sin (rad dec) * sin (rad ra), cos (rad dec)).
Definition east (ra dec : R) : vec := (- sin (rad ra), cos (rad ra), 0).
Definition unit (u : vec) : Prop := dot u u = 1.
Definition vsub (u v : vec) : vec :=
  let '(a, b, c) := u in let '(d, e, f) := v in (a - d, b - e, c - f).
Definition cross (u v : vec) : vec :=
  let '(a, b, c) := u in let '(d, e, f) := v in (b * f - c * e, c * d - a * f, a * e - b * d).
Definition norm (u : vec) : R := sqrt (dot u u).

(* gcd = deg (atan2 (hypot sep_y sep_x) sep_z): (sep_y, sep_x) are the components of the cross product of the two unit
   vectors in the tangent frame at point 1 (its length is |u x v|), sep_z is the dot product *)
Definition sep_y (ra1 dec1 ra2 dec2 : R) : R := cos (rad dec2) * sin (rad (ra2 - ra1)).
Definition sep_x (ra1 dec1 ra2 dec2 : R) : R :=
  cos (rad dec1) * sin (rad dec2) - sin (rad dec1) * cos (rad dec2) * cos (rad (ra2 - ra1)).
Definition sep_z (ra1 dec1 ra2 dec2 : R) : R :=
  sin (rad dec1) * sin (rad dec2) + cos (rad dec1) * cos (rad dec2) * cos (rad (ra2 - ra1)).
(* the haversine of the separation: the form gcd had in /repo before its near-antipodal accuracy was repaired (now the
   atan2 form above); the interval certificates of C16 bound gcd through it, see gcd_hav / gcd_asin *)
Definition hav (ra1 dec1 ra2 dec2 : R) : R :=
  sin (rad (dec2 - dec1) / 2) ^ 2 + cos (rad dec1) * cos (rad dec2) * sin (rad (ra2 - ra1) / 2) ^ 2.
Definition bear_y (ra1 dec1 ra2 dec2 : R) : R := sin (rad (ra2 - ra1)) * cos (rad dec2).
Definition bear_x (ra1 dec1 ra2 dec2 : R) : R :=
  cos (rad dec1) * sin (rad dec2) - sin (rad dec1) * cos (rad dec2) * cos (rad (ra2 - ra1)).
Definition tr_factor (dec r theta : R) : R :=
  sin (rad dec) * cos (rad r) + cos (rad dec) * sin (rad r) * cos (rad theta).
Definition tr_y (dec r theta : R) : R := sin (rad theta) * sin (rad r) * cos (rad dec).
Definition tr_x (dec r theta : R) : R := cos (rad r) - sin (rad dec) * tr_factor dec r theta.

Lemma rad_le a b : a <= b -> rad a <= rad b.
Proof. apply rad_le_iff. Qed.
Lemma rad_lt a b : a < b -> rad a < rad b.
Proof. apply rad_lt_iff. Qed.
Lemma deg_inj a b : deg a = deg b -> a = b.
Proof. intros H. rewrite <- (rad_deg a), <- (rad_deg b), H. reflexivity. Qed.

Lemma dot2_range a b c d : a * a + b * b = 1 -> c * c + d * d <= 1 -> -1 <= a * c + b * d <= 1.
Proof. intros H1 H2. pose proof (Rle_0_sqr (a * d - b * c)) as H. unfold Rsqr in H. split; nra. Qed.
Lemma factor_range dec r theta : -1 <= tr_factor dec r theta <= 1.
Proof.
  unfold tr_factor. rewrite Rmult_assoc.
  pose proof (sin2_cos2 (rad dec)) as H1. pose proof (sin2_cos2 (rad r)) as H2. pose proof (sin2_cos2 (rad theta)) as H3.
  unfold Rsqr in *. apply dot2_range; [exact H1 | nra].
Qed.

Lemma gcd_eq ra1 dec1 ra2 dec2 :
  gcd ra1 dec1 ra2 dec2 =
  deg (atan2 (hypot (sep_y ra1 dec1 ra2 dec2) (sep_x ra1 dec1 ra2 dec2)) (sep_z ra1 dec1 ra2 dec2)).
Proof. reflexivity. Qed.
Lemma bear_eq ra1 dec1 ra2 dec2 :
  bear ra1 dec1 ra2 dec2 = deg (atan2 (bear_y ra1 dec1 ra2 dec2) (bear_x ra1 dec1 ra2 dec2)).
Proof. reflexivity. Qed.
(* a clamp of the arcsin argument to [-1, 1] (np.clip, or minimum/maximum) is the identity over R;
   the characterising lemma accepts the body with or without it *)
Lemma clamp_id x : -1 <= x <= 1 -> Rmin 1 (Rmax (-1) x) = x.
Proof. intros [H0 H1]. rewrite Rmax_right by lra. apply Rmin_right; lra. Qed.
Lemma clamp_id' x : -1 <= x <= 1 -> Rmax (-1) (Rmin 1 x) = x.
Proof. intros [H0 H1]. rewrite Rmin_right by lra. apply Rmax_right; lra. Qed.
Lemma translate_eq ra dec r theta :
  translate ra dec r theta =
  (ra + deg (atan2 (tr_y dec r theta) (tr_x dec r theta)), deg (asin (tr_factor dec r theta))).
Proof.
  unfold translate; cbv zeta. fold (tr_factor dec r theta).
  rewrite ?clamp_id, ?clamp_id' by apply factor_range.
  rewrite rad_deg, sin_asin by apply factor_range. reflexivity.
Qed.
Local Opaque gcd bear translate.

Lemma sin2_half t : sin (t / 2) ^ 2 = (1 - cos t) / 2.
Proof. replace t with (2 * (t / 2)) at 2 by field. rewrite cos_2a_sin. field. Qed.

Lemma dot_comm u v : dot u v = dot v u.
Proof. destruct u as [[a b] c], v as [[d e] f]; cbn; ring. Qed.

Lemma sphere_unit s c sa ca : s * s + c * c = 1 -> sa * sa + ca * ca = 1 -> c * ca * (c * ca) + c * sa * (c * sa) + s * s = 1.
Proof. intros H1 H2. transitivity (c * c * (sa * sa + ca * ca) + s * s); [ring | rewrite H2; lra]. Qed.
Lemma uvec_unit ra dec : unit (uvec ra dec).
Proof. apply sphere_unit; apply sin2_cos2. Qed.
Lemma north_unit ra dec : unit (north ra dec).
Proof.
  apply (sphere_unit (cos (rad dec)) (- sin (rad dec))); [|apply sin2_cos2].
  pose proof (sin2_cos2 (rad dec)) as H. unfold Rsqr in H. lra.
Qed.
Lemma east_unit ra dec : unit (east ra dec).
Proof.
  unfold unit, dot, east. pose proof (sin2_cos2 (rad ra)) as H2. unfold Rsqr in *. lra.
Qed.
Lemma frame_orthogonal ra dec :
  dot (uvec ra dec) (north ra dec) = 0 /\ dot (uvec ra dec) (east ra dec) = 0 /\
  dot (north ra dec) (east ra dec) = 0.
Proof.
  unfold dot, uvec, north, east. repeat split; [|ring|ring].
  pose proof (sin2_cos2 (rad ra)) as H2. unfold Rsqr in H2.
  transitivity (sin (rad dec) * cos (rad dec) * (1 - (sin (rad ra) * sin (rad ra) + cos (rad ra) * cos (rad ra)))); [ring|].
  rewrite H2. ring.
Qed.

Lemma dot_uvec ra1 dec1 ra2 dec2 :
  dot (uvec ra1 dec1) (uvec ra2 dec2) =
  cos (rad dec1) * cos (rad dec2) * cos (rad (ra2 - ra1)) + sin (rad dec1) * sin (rad dec2).
Proof. unfold dot, uvec. rewrite rad_sub, cos_minus. ring. Qed.

Lemma dot_unit_range u v : unit u -> unit v -> -1 <= dot u v <= 1.
Proof.
  destruct u as [[a b] c], v as [[d e] f]. unfold unit, dot. intros Hu Hv.
  pose proof (Rle_0_sqr (a - d)). pose proof (Rle_0_sqr (b - e)). pose proof (Rle_0_sqr (c - f)).
  pose proof (Rle_0_sqr (a + d)). pose proof (Rle_0_sqr (b + e)). pose proof (Rle_0_sqr (c + f)).
  unfold Rsqr in *. split; lra.
Qed.
Lemma dot_unit_one u v : unit u -> unit v -> (dot u v = 1 <-> u = v).
Proof.
  destruct u as [[a b] c], v as [[d e] f]. unfold unit, dot. intros Hu Hv. split.
  - intros H. pose proof (Rle_0_sqr (a - d)). pose proof (Rle_0_sqr (b - e)). pose proof (Rle_0_sqr (c - f)).
    f_equal; [f_equal|]; apply Rminus_diag_uniq, Rsqr_0_uniq; unfold Rsqr in *; lra.
  - intros H. inversion H; subst. lra.
Qed.
Lemma dot_uvec_range ra1 dec1 ra2 dec2 : -1 <= dot (uvec ra1 dec1) (uvec ra2 dec2) <= 1.
Proof. apply dot_unit_range; apply uvec_unit. Qed.

Lemma hav_dot ra1 dec1 ra2 dec2 :
  hav ra1 dec1 ra2 dec2 = (1 - dot (uvec ra1 dec1) (uvec ra2 dec2)) / 2.
Proof.
  unfold hav. rewrite !sin2_half, dot_uvec, (rad_sub dec2 dec1), cos_minus. field.
Qed.
Lemma hav_chord ra1 dec1 ra2 dec2 :
  let w := vsub (uvec ra1 dec1) (uvec ra2 dec2) in hav ra1 dec1 ra2 dec2 = dot w w / 4.
Proof.
  cbv zeta. rewrite hav_dot.
  pose proof (uvec_unit ra1 dec1) as H1. pose proof (uvec_unit ra2 dec2) as H2.
  destruct (uvec ra1 dec1) as [[a b] c], (uvec ra2 dec2) as [[d e] f].
  unfold unit, dot, vsub in *. lra.
Qed.
Lemma hav_range ra1 dec1 ra2 dec2 : 0 <= hav ra1 dec1 ra2 dec2 <= 1.
Proof. rewrite hav_dot. pose proof (dot_uvec_range ra1 dec1 ra2 dec2). lra. Qed.

Lemma acos_half_asin c : -1 <= c <= 1 -> acos c = 2 * asin (sqrt ((1 - c) / 2)).
Proof.
  intros Hc. pose proof (acos_bound c) as Hb. pose proof PI_RGT_0 as HPI.
  rewrite <- (cos_acos c Hc) at 2. rewrite <- sin2_half, sqrt_pow2 by (apply sin_ge_0; lra).
  rewrite asin_sin by lra. field.
Qed.

Lemma sep_z_dot ra1 dec1 ra2 dec2 : sep_z ra1 dec1 ra2 dec2 = dot (uvec ra1 dec1) (uvec ra2 dec2).
Proof. rewrite dot_uvec. unfold sep_z. ring. Qed.
Lemma sep_bear ra1 dec1 ra2 dec2 :
  sep_y ra1 dec1 ra2 dec2 = bear_y ra1 dec1 ra2 dec2 /\ sep_x ra1 dec1 ra2 dec2 = bear_x ra1 dec1 ra2 dec2.
Proof. unfold sep_y, sep_x, bear_y, bear_x. split; ring. Qed.
Lemma sep_hyp ra1 dec1 ra2 dec2 :
  sep_y ra1 dec1 ra2 dec2 * sep_y ra1 dec1 ra2 dec2 + sep_x ra1 dec1 ra2 dec2 * sep_x ra1 dec1 ra2 dec2
  = 1 - sep_z ra1 dec1 ra2 dec2 * sep_z ra1 dec1 ra2 dec2.
Proof.
  unfold sep_y, sep_x, sep_z.
  pose proof (sin2_cos2 (rad dec1)) as H1. pose proof (sin2_cos2 (rad dec2)) as H2.
  pose proof (sin2_cos2 (rad (ra2 - ra1))) as H3. unfold Rsqr in *.
  set (s1 := sin (rad dec1)) in *; set (c1 := cos (rad dec1)) in *;
  set (s2 := sin (rad dec2)) in *; set (c2 := cos (rad dec2)) in *;
  set (sd := sin (rad (ra2 - ra1))) in *; set (cd := cos (rad (ra2 - ra1))) in *.
  (* the difference of the two sides, as a combination of the three Pythagorean identities *)
  apply Rminus_diag_uniq.
  transitivity (c2 * c2 * (sd * sd + cd * cd - 1) + (c2 * c2 * cd * cd + s2 * s2) * (s1 * s1 + c1 * c1 - 1) + (s2 * s2 + c2 * c2 - 1));
    [ring | rewrite H1, H2, H3; ring].
Qed.
(* bridge from the atan2 form to the angle between the unit vectors: for unit vectors |u x v|^2 + (u.v)^2 = 1,
   so atan2 |u x v| (u.v) is the angle in [0, PI] whose cosine is u.v *)
Lemma gcd_acos ra1 dec1 ra2 dec2 :
  rad (gcd ra1 dec1 ra2 dec2) = acos (dot (uvec ra1 dec1) (uvec ra2 dec2)).
Proof.
  rewrite gcd_eq, rad_deg, <- sep_z_dot. apply atan2_acos; [apply hypot_nonneg | rewrite hypot_sqr, sep_hyp; ring].
Qed.
Lemma cross_lagrange u v : dot (cross u v) (cross u v) = dot u u * dot v v - dot u v * dot u v.
Proof. destruct u as [[a b] c], v as [[d e] f]. unfold cross, dot. ring. Qed.
Lemma sep_cross ra1 dec1 ra2 dec2 :
  hypot (sep_y ra1 dec1 ra2 dec2) (sep_x ra1 dec1 ra2 dec2) = norm (cross (uvec ra1 dec1) (uvec ra2 dec2)).
Proof.
  unfold hypot, norm. rewrite cross_lagrange, sep_hyp, sep_z_dot.
  pose proof (uvec_unit ra1 dec1) as H1. pose proof (uvec_unit ra2 dec2) as H2. unfold unit in *.
  rewrite H1, H2. f_equal. ring.
Qed.
Lemma gcd_cross ra1 dec1 ra2 dec2 :
  gcd ra1 dec1 ra2 dec2 =
  deg (atan2 (norm (cross (uvec ra1 dec1) (uvec ra2 dec2))) (dot (uvec ra1 dec1) (uvec ra2 dec2))).
Proof. rewrite gcd_eq, sep_cross, sep_z_dot. reflexivity. Qed.

Lemma gcd_vector ra1 dec1 ra2 dec2 :
  cos (rad (gcd ra1 dec1 ra2 dec2)) = dot (uvec ra1 dec1) (uvec ra2 dec2).
Proof. rewrite gcd_acos. apply cos_acos, dot_uvec_range. Qed.
Lemma gcd_angle ra1 dec1 ra2 dec2 :
  gcd ra1 dec1 ra2 dec2 = deg (acos (dot (uvec ra1 dec1) (uvec ra2 dec2))).
Proof. rewrite <- gcd_acos. symmetry; apply deg_rad. Qed.
Lemma gcd_rad_range ra1 dec1 ra2 dec2 : 0 <= rad (gcd ra1 dec1 ra2 dec2) <= PI.
Proof. rewrite gcd_acos. apply acos_bound. Qed.
Lemma gcd_range ra1 dec1 ra2 dec2 : 0 <= gcd ra1 dec1 ra2 dec2 <= 180.
Proof.
  pose proof (gcd_rad_range ra1 dec1 ra2 dec2) as [H0 H1].
  split; apply rad_le_iff; rewrite ?rad_0, ?rad_180; assumption.
Qed.
Lemma gcd_sym ra1 dec1 ra2 dec2 : gcd ra1 dec1 ra2 dec2 = gcd ra2 dec2 ra1 dec1.
Proof. rewrite !gcd_angle, dot_comm. reflexivity. Qed.
Lemma gcd_zero_iff ra1 dec1 ra2 dec2 :
  gcd ra1 dec1 ra2 dec2 = 0 <-> uvec ra1 dec1 = uvec ra2 dec2.
Proof.
  rewrite <- (dot_unit_one _ _ (uvec_unit ra1 dec1) (uvec_unit ra2 dec2)). split; intros H.
  - rewrite <- gcd_vector, H, rad_0. apply cos_0.
  - rewrite gcd_angle, H, acos_1. apply deg_0.
Qed.

(* the haversine form (the text of gcd in /repo before that repair) is a derived normal form; the interval
   certificates of C16 bound gcd through it *)
Lemma gcd_asin ra1 dec1 ra2 dec2 :
  rad (gcd ra1 dec1 ra2 dec2) = 2 * asin (sqrt (hav ra1 dec1 ra2 dec2)) /\
  0 <= sqrt (hav ra1 dec1 ra2 dec2) <= 1.
Proof.
  pose proof (hav_range ra1 dec1 ra2 dec2) as [H0 H1]. split.
  - rewrite gcd_acos, hav_dot. apply acos_half_asin, dot_uvec_range.
  - split; [apply sqrt_pos|]. rewrite <- sqrt_1. apply sqrt_le_1_alt, H1.
Qed.
Lemma gcd_hav ra1 dec1 ra2 dec2 :
  gcd ra1 dec1 ra2 dec2 = deg (2 * asin (Rmin 1 (sqrt (hav ra1 dec1 ra2 dec2)))).
Proof.
  destruct (gcd_asin ra1 dec1 ra2 dec2) as [Hg Hs].
  rewrite Rmin_right by lra. rewrite <- Hg. symmetry; apply deg_rad.
Qed.

Lemma gram (p q r : vec) :
  dot p p * dot q q * dot r r + 2 * dot p q * dot q r * dot p r
  - dot p p * (dot q r * dot q r) - dot q q * (dot p r * dot p r) - dot r r * (dot p q * dot p q)
  = dot p (cross q r) * dot p (cross q r).
Proof. destruct p as [[p1 p2] p3], q as [[q1 q2] q3], r as [[r1 r2] r3]. unfold dot, cross. ring. Qed.
Lemma angle_triangle_cos (p q r : vec) : unit p -> unit q -> unit r ->
  let X := dot p r - dot p q * dot q r in
  X * X <= (1 - dot p q * dot p q) * (1 - dot q r * dot q r).
Proof.
  unfold unit. intros Hp Hq Hr. cbv zeta. pose proof (gram p q r) as G. rewrite Hp, Hq, Hr in G.
  pose proof (Rle_0_sqr (dot p (cross q r))) as H. unfold Rsqr in H. nra.
Qed.

Lemma gcd_triangle ra1 dec1 ra2 dec2 ra3 dec3 :
  gcd ra1 dec1 ra3 dec3 <= gcd ra1 dec1 ra2 dec2 + gcd ra2 dec2 ra3 dec3.
Proof.
  apply rad_le_iff. rewrite rad_add.
  pose proof (gcd_rad_range ra1 dec1 ra2 dec2) as Ha. pose proof (gcd_rad_range ra2 dec2 ra3 dec3) as Hb.
  pose proof (gcd_rad_range ra1 dec1 ra3 dec3) as Hc.
  pose proof (angle_triangle_cos _ _ _ (uvec_unit ra1 dec1) (uvec_unit ra2 dec2) (uvec_unit ra3 dec3)) as HX.
  cbv zeta in HX. rewrite <- !gcd_vector in HX.
  set (a := rad (gcd ra1 dec1 ra2 dec2)) in *. set (b := rad (gcd ra2 dec2 ra3 dec3)) in *.
  set (c := rad (gcd ra1 dec1 ra3 dec3)) in *.
  destruct (Rle_dec PI (a + b)) as [Hbig|Hsmall]; [lra|].
  apply cos_decr_0; try lra. rewrite cos_plus.
  (* (cos c - cos a cos b)^2 <= (sin a sin b)^2 with sin a sin b >= 0 *)
  assert (Hsa : 0 <= sin a) by (apply sin_ge_0; lra).
  assert (Hsb : 0 <= sin b) by (apply sin_ge_0; lra).
  pose proof (sin2_cos2 a) as H2a. pose proof (sin2_cos2 b) as H2b. unfold Rsqr in *.
  replace (1 - cos a * cos a) with (sin a * sin a) in HX by lra.
  replace (1 - cos b * cos b) with (sin b * sin b) in HX by lra.
  pose proof (Rmult_le_pos _ _ Hsa Hsb). nra.
Qed.

(* bearing = position angle: the direction of point 2 seen from point 1, measured in the tangent
   plane at point 1 from local north through local east *)
Lemma bear_frame ra1 dec1 ra2 dec2 :
  bear_y ra1 dec1 ra2 dec2 = dot (uvec ra2 dec2) (east ra1 dec1) /\
  bear_x ra1 dec1 ra2 dec2 = dot (uvec ra2 dec2) (north ra1 dec1).
Proof.
  unfold bear_y, bear_x, dot, uvec, east, north. rewrite rad_sub, sin_minus, cos_minus. split; ring.
Qed.
Lemma bear_range ra1 dec1 ra2 dec2 : -180 < bear ra1 dec1 ra2 dec2 <= 180.
Proof.
  rewrite bear_eq. destruct (atan2_range (bear_y ra1 dec1 ra2 dec2) (bear_x ra1 dec1 ra2 dec2)) as [Hl Hu].
  apply deg_lt in Hl. apply deg_le in Hu. rewrite deg_opp, deg_PI in *. lra.
Qed.
Lemma bear_hyp ra1 dec1 ra2 dec2 :
  bear_x ra1 dec1 ra2 dec2 * bear_x ra1 dec1 ra2 dec2 + bear_y ra1 dec1 ra2 dec2 * bear_y ra1 dec1 ra2 dec2
  = 1 - dot (uvec ra1 dec1) (uvec ra2 dec2) * dot (uvec ra1 dec1) (uvec ra2 dec2).
Proof. destruct (sep_bear ra1 dec1 ra2 dec2) as [<- <-]. rewrite <- sep_z_dot, <- sep_hyp. ring. Qed.
Lemma bear_polar ra1 dec1 ra2 dec2 :
  0 < gcd ra1 dec1 ra2 dec2 < 180 ->
  let d := rad (gcd ra1 dec1 ra2 dec2) in let t := rad (bear ra1 dec1 ra2 dec2) in
  bear_x ra1 dec1 ra2 dec2 = sin d * cos t /\ bear_y ra1 dec1 ra2 dec2 = sin d * sin t.
Proof.
  intros _. cbv zeta. rewrite bear_eq, rad_deg. pose proof (gcd_rad_range ra1 dec1 ra2 dec2) as Hd.
  rewrite <- (hypot_eq (sin (rad (gcd ra1 dec1 ra2 dec2))) (bear_x ra1 dec1 ra2 dec2) (bear_y ra1 dec1 ra2 dec2)).
  - split; symmetry; apply atan2_polar_dec.
  - apply sin_ge_0; lra.
  - rewrite bear_hyp, <- gcd_vector. pose proof (sin2_cos2 (rad (gcd ra1 dec1 ra2 dec2))) as H. unfold Rsqr in H. lra.
Qed.

Section Translate.
  Variables ra dec r theta : R.
  Let F := tr_factor dec r theta.
  Let x := tr_x dec r theta.
  Let y := tr_y dec r theta.
  Let ra' := fst (translate ra dec r theta).
  Let dec' := snd (translate ra dec r theta).

  Lemma translate_fst : ra' = ra + deg (atan2 y x).
  Proof. unfold ra'. rewrite translate_eq. reflexivity. Qed.
  Lemma translate_snd : dec' = deg (asin F).
  Proof. unfold dec'. rewrite translate_eq. reflexivity. Qed.
  Lemma translate_sin_dec : sin (rad dec') = F.
  Proof. rewrite translate_snd, rad_deg. apply sin_asin, factor_range. Qed.
  Lemma translate_dec_range : -90 <= dec' <= 90.
  Proof.
    rewrite translate_snd. destruct (asin_bound F) as [Hl Hu]. apply deg_le in Hl. apply deg_le in Hu.
    rewrite deg_opp in Hl. rewrite <- rad_90, deg_rad in *. lra.
  Qed.

  Hypothesis Hdec : -90 < dec < 90.
  Hypothesis Hdec' : -90 < dec' < 90.

  Lemma translate_cos_pos : 0 < cos (rad dec) /\ 0 < cos (rad dec').
  Proof. split; apply cos_rad_pos; assumption. Qed.

  (* the key identity: (x, y) has length cos dec * cos dec' *)
  Lemma translate_key : x * x + y * y = (cos (rad dec) * cos (rad dec')) * (cos (rad dec) * cos (rad dec')).
  Proof.
    pose proof (sin2_cos2 (rad dec)) as H1. pose proof (sin2_cos2 (rad r)) as H2.
    pose proof (sin2_cos2 (rad theta)) as H3. pose proof (sin2_cos2 (rad dec')) as H4.
    rewrite translate_sin_dec in H4.
    unfold x, y, tr_x, tr_y. unfold F in H4. unfold tr_factor in *. unfold Rsqr in *.
    set (s := sin (rad dec)) in *; set (c := cos (rad dec)) in *; set (sr := sin (rad r)) in *; set (cr := cos (rad r)) in *;
    set (st := sin (rad theta)) in *; set (ct := cos (rad theta)) in *; set (c' := cos (rad dec')) in *.
    set (f := s * cr + c * sr * ct) in *.
    (* the difference of the two sides, as a combination of the four Pythagorean identities *)
    apply Rminus_diag_uniq.
    transitivity (c * c * (sr * sr + cr * cr - 1) + (f * f - cr * cr) * (s * s + c * c - 1) + c * c * sr * sr * (st * st + ct * ct - 1)
                  - c * c * (f * f + c' * c' - 1)); [unfold f; ring | rewrite H1, H2, H3, H4; ring].
  Qed.
  Lemma translate_dlon : let L := atan2 y x in
    cos (rad dec) * cos (rad dec') * cos L = x /\ cos (rad dec) * cos (rad dec') * sin L = y.
  Proof.
    cbv zeta. destruct translate_cos_pos as [Hc Hc'].
    rewrite <- (hypot_eq (cos (rad dec) * cos (rad dec')) x y); [apply atan2_polar_dec | nra | symmetry; apply translate_key].
  Qed.
  Lemma translate_dra : rad (ra' - ra) = atan2 y x.
  Proof. rewrite translate_fst. replace (ra + deg (atan2 y x) - ra) with (deg (atan2 y x)) by ring. apply rad_deg. Qed.

  Lemma translate_dot : dot (uvec ra dec) (uvec ra' dec') = cos (rad r).
  Proof.
    destruct translate_dlon as [HL _]. rewrite dot_uvec, translate_dra, translate_sin_dec, HL. unfold x, tr_x. fold F. ring.
  Qed.
  Theorem translate_gcd : 0 < r < 180 -> gcd ra dec ra' dec' = r.
  Proof.
    intros Hr. rewrite gcd_angle, translate_dot, acos_cos; [apply deg_rad|].
    pose proof PI_RGT_0. unfold rad; split; nra.
  Qed.

  Lemma translate_bear_eq :
    bear ra dec ra' dec' = deg (atan2 (sin (rad r) * sin (rad theta)) (sin (rad r) * cos (rad theta))).
  Proof.
    destruct translate_cos_pos as [Hc _]. destruct translate_dlon as [HLc HLs].
    rewrite bear_eq. unfold bear_y, bear_x. rewrite translate_sin_dec, translate_dra.
    set (L := atan2 y x) in *. f_equal. f_equal.
    (* both components times cos dec, through y and x *)
    - apply Rmult_eq_reg_l with (cos (rad dec)); [|lra].
      transitivity y; [rewrite <- HLs; ring | unfold y, tr_y; ring].
    - apply Rmult_eq_reg_l with (cos (rad dec)); [|lra].
      pose proof (sin2_cos2 (rad dec)) as H1. unfold Rsqr in H1.
      transitivity ((sin (rad dec) * sin (rad dec) + cos (rad dec) * cos (rad dec)) * F - sin (rad dec) * cos (rad r)).
      + transitivity (cos (rad dec) * cos (rad dec) * F - sin (rad dec) * (cos (rad dec) * cos (rad dec') * cos L)); [ring|].
        rewrite HLc. unfold x, tr_x. fold F. ring.
      + rewrite H1. unfold F, tr_factor. ring.
  Qed.
  Theorem translate_bear : 0 < r < 180 -> -180 < theta <= 180 -> bear ra dec ra' dec' = theta.
  Proof. intros Hr Ht. rewrite translate_bear_eq. apply atan2_polar_deg; [apply sin_rad_pos, Hr | exact Ht]. Qed.
  Lemma translate_bear_dir : 0 < r < 180 ->
    cos (rad (bear ra dec ra' dec')) = cos (rad theta) /\ sin (rad (bear ra dec ra' dec')) = sin (rad theta).
  Proof. intros Hr. rewrite translate_bear_eq, rad_deg. apply atan2_polar_trig, sin_rad_pos, Hr. Qed.
End Translate.

(* a point laid out at right angles to the direction pa (at bearing pa + 90 up to half turns): the correction factor
   |cos| that pix2sky_ellipse applies to the minor axis is 1, because the bearing back has the same cosine and sine as th *)
Lemma minor_perp ra dec b pa th : -90 < dec < 90 -> -90 < snd (translate ra dec b th) < 90 -> 0 < b < 180 ->
  (exists k : Z, th = pa + 90 + 180 * IZR k) ->
  let q := translate ra dec b th in
  gcd ra dec (fst q) (snd q) * Rabs (cos (rad (pa - (bear ra dec (fst q) (snd q) - 90)))) = b.
Proof.
  intros Hd Hq Hb [k Hk]. cbv zeta. rewrite translate_gcd by assumption.
  destruct (translate_bear_dir ra dec b th Hd Hq Hb) as [Hc Hs].
  rewrite rad_sub, cos_minus, cos_rad_m90, sin_rad_m90, Hc, Hs.
  replace (cos (rad pa) * sin (rad th) + sin (rad pa) * - cos (rad th)) with (sin (rad (th - pa)))
    by (rewrite rad_sub, sin_minus; ring).
  replace (th - pa) with (180 * IZR k + 90) by lra. rewrite sin_rad_p90, cos_half_turns. ring.
Qed.

Lemma translate_zero ra dec theta : -90 <= dec <= 90 -> translate ra dec 0 theta = (ra, dec).
Proof.
  intros Hdec. rewrite translate_eq. unfold tr_y, tr_x, tr_factor. rewrite rad_0, sin_0, cos_0.
  replace (sin (rad dec) * 1 + cos (rad dec) * 0 * cos (rad theta)) with (sin (rad dec)) by ring.
  replace (sin (rad theta) * 0 * cos (rad dec)) with 0 by ring.
  rewrite asin_sin_deg, atan2_0_l, deg_0; [f_equal; ring | pose proof (SIN_bound (rad dec)); nra | exact Hdec].
Qed.

(* translate for every theta in (-180, 360): the bearing comes back modulo 360 *)
Lemma translate_period ra dec r theta : translate ra dec r theta = translate ra dec r (theta - 360).
Proof.
  rewrite !translate_eq. unfold tr_y, tr_x, tr_factor.
  replace (theta - 360) with (theta + 360 * IZR (-1)) by ring. rewrite cos_rad_period, sin_rad_period. reflexivity.
Qed.

Lemma c17_translate ra dec r theta :
  0 < r < 180 -> -90 < dec < 90 ->
  let q := translate ra dec r theta in
  -90 < snd q < 90 ->
  gcd ra dec (fst q) (snd q) = r /\
  (-180 < theta <= 180 -> bear ra dec (fst q) (snd q) = theta) /\
  (180 < theta < 360 -> bear ra dec (fst q) (snd q) = theta - 360).
Proof.
  intros Hr Hdec q Hq. split; [apply translate_gcd; assumption|]. split.
  - intros Ht. apply translate_bear; assumption.
  - intros Ht. unfold q in *. rewrite translate_period in *. apply translate_bear; try assumption. lra.
Qed.

Lemma translate_equator ra r th :
  translate ra 0 r th =
  (ra + deg (atan2 (sin (rad th) * sin (rad r)) (cos (rad r))), deg (asin (sin (rad r) * cos (rad th)))).
Proof. rewrite translate_eq. unfold tr_y, tr_x, tr_factor. rewrite rad_0, sin_0, cos_0. f_equal; [do 3 f_equal | do 2 f_equal]; ring. Qed.
Lemma atan2_unit_deg t : -180 < t <= 180 -> deg (atan2 (sin (rad t)) (cos (rad t))) = t.
Proof. intros Ht. rewrite <- (Rmult_1_l (sin _)), <- (Rmult_1_l (cos _)). apply atan2_polar_deg; lra. Qed.

Lemma translate_equator_north ra r : 0 < r < 90 -> translate ra 0 r 0 = (ra, r).
Proof.
  intros Hr. rewrite translate_equator, rad_0, sin_0, cos_0, Rmult_0_l, Rmult_1_r.
  rewrite atan2_0_l by (left; apply cos_rad_pos; lra).
  rewrite deg_0, Rplus_0_r, asin_sin_deg by lra. reflexivity.
Qed.
Lemma translate_equator_east ra r : 0 < r < 180 -> translate ra 0 r 90 = (ra + r, 0).
Proof.
  intros Hr. rewrite translate_equator, rad_90, sin_PI2, cos_PI2, Rmult_1_l, Rmult_0_r, asin_0, deg_0, atan2_unit_deg by lra.
  reflexivity.
Qed.
Lemma translate_equator_west ra r : 0 < r < 180 -> translate ra 0 r (-90) = (ra - r, 0).
Proof.
  intros Hr. rewrite translate_equator. replace (rad (-90)) with (- (PI / 2)) by (unfold rad; field).
  rewrite sin_neg, cos_neg, sin_PI2, cos_PI2, Rmult_0_r, asin_0, deg_0.
  replace (- (1) * sin (rad r)) with (sin (rad (- r))) by (rewrite rad_opp, sin_neg; ring).
  replace (cos (rad r)) with (cos (rad (- r))) by (rewrite rad_opp; apply cos_neg).
  rewrite atan2_unit_deg by lra. reflexivity.
Qed.
