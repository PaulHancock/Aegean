(* Sample statistics and iterated sigma clipping, written once over an arbitrary scalar type and instantiated
   at Q (executable: mean and population VARIANCE, the comparisons with mean -+ std*level are decided exactly
   by comparing squares) and at R (mean and standard deviation sqrt(variance), the comparisons as the code
   writes them).  Definitions only; lemmas are in Proofs/StatsProofs.v. *)
From Coq Require Import ZArith QArith Reals Bool List.
Import ListNotations.

Section Generic.
  Variable X : Type.
  Variable zero : X.
  Variable add sub mul div : X -> X -> X.
  Variable ofnat : nat -> X.

  Definition sum (l : list X) : X := fold_right add zero l.
  Definition mean (l : list X) : X := div (sum l) (ofnat (length l)).
  (* numpy.std / numpy.var: mean of squared deviations from the mean (ddof = 0) *)
  Definition var (l : list X) : X :=
    let m := mean l in div (sum (map (fun x => mul (sub x m) (sub x m)) l)) (ofnat (length l)).

  (* spread: what is carried beside the mean (variance over Q, standard deviation over R);
     keep m s x: does x survive a clipping round with centre m and spread s *)
  Variable spread : list X -> X.
  Variable keep : X -> X -> X -> bool.

  (* the loop of BANE.sigmaclip: at most `reps` rounds; stop when nothing survives (the statistics of the
     previous round are returned) or when no element was removed *)
  Fixpoint clip_loop (reps : nat) (l : list X) (m s : X) : X * X :=
    match reps with
    | O => (m, s)
    | S n =>
        let l' := filter (keep m s) l in
        match l' with
        | [] => (m, s)
        | _ => if Nat.eqb (length l') (length l) then (m, s)
               else clip_loop n l' (mean l') (spread l')
        end
    end.
  Definition clip (reps : nat) (l : list X) : X * X := clip_loop reps l (mean l) (spread l).
End Generic.

(* Q, executable: lo, hi >= 0 are the clipping levels, sl / sh the strictness of the comparisons.
   x > m - sqrt v * lo   is decided as   x > m  or  (m - x)^2 < lo^2 v      (strict)
   x >= m - sqrt v * lo  is decided as   x >= m or  (m - x)^2 <= lo^2 v     (non strict) *)
Definition Qltb (a b : Q) : bool := negb (Qle_bool b a).
Definition qcmp (strict : bool) (a b : Q) : bool := if strict then Qltb a b else Qle_bool a b.
Definition keep_q (lo hi : Z) (sl sh : bool) (m v x : Q) : bool :=
  (qcmp sl m x || qcmp sl ((m - x) * (m - x)) (inject_Z (lo * lo) * v))%Q
  && (qcmp sh x m || qcmp sh ((x - m) * (x - m)) (inject_Z (hi * hi) * v))%Q.
Definition q_ofnat (n : nat) : Q := inject_Z (Z.of_nat n).
(* sums are kept in lowest terms (Qred is the identity up to Qeq) *)
Definition qadd (a b : Q) : Q := Qred (a + b).
Definition mean_q := mean Q 0%Q qadd Qdiv q_ofnat.
Definition var_q := var Q 0%Q qadd Qminus Qmult Qdiv q_ofnat.
(* returns (mean, variance) of the surviving elements; the argument must be non-empty *)
Definition sigmaclip_q (lo hi : Z) (sl sh : bool) (reps : Z) (l : list Q) : Q * Q :=
  let r := clip Q 0%Q qadd Qdiv q_ofnat var_q (keep_q lo hi sl sh) (Z.to_nat reps) l in (Qred (fst r), Qred (snd r)).

(* margin of the closest comparison to its threshold over all rounds, as min over elements and rounds of
   |(x-m)^2 - level^2 v| / (level^2 v)  (used by the harness to discard inputs on which binary64 rounding could decide a
   comparison differently); None when v = 0 in a round that compares *)
Definition q_abs (a : Q) : Q := if Qle_bool 0 a then a else Qopp a.
Definition q_min (a b : Q) : Q := if Qle_bool a b then a else b.
Fixpoint margin_loop (lo hi : Z) (sl sh : bool) (reps : nat) (l : list Q) (m v : Q) (acc : Q) : option Q :=
  match reps with
  | O => Some acc
  | S n =>
      if Qle_bool v 0 then None else
      let t1 := (inject_Z (lo * lo) * v)%Q in
      let t2 := (inject_Z (hi * hi) * v)%Q in
      let acc' := fold_right (fun x a => q_min a (q_min (q_abs (((m - x) * (m - x) - t1) / t1)) (q_abs (((m - x) * (m - x) - t2) / t2))))%Q
                             acc l in
      let l' := filter (keep_q lo hi sl sh m v) l in
      match l' with
      | [] => Some acc'
      | _ => if Nat.eqb (length l') (length l) then Some acc'
             else margin_loop lo hi sl sh n l' (mean_q l') (var_q l') acc'
      end
  end.
Definition sigmaclip_margin (lo hi : Z) (sl sh : bool) (reps : Z) (l : list Q) : option Q :=
  option_map Qred (margin_loop lo hi sl sh (Z.to_nat reps) l (mean_q l) (var_q l) 1%Q).

Definition Rltb (a b : R) : bool := if Rlt_dec a b then true else false.
Definition Rleb (a b : R) : bool := if Rle_dec a b then true else false.
Definition rcmp (strict : bool) (a b : R) : bool := if strict then Rltb a b else Rleb a b.
Definition keep_r (lo hi : Z) (sl sh : bool) (m s x : R) : bool :=
  rcmp sl (m - s * IZR lo)%R x && rcmp sh x (m + s * IZR hi)%R.
Definition mean_r := mean R 0%R Rplus Rdiv INR.
Definition var_r := var R 0%R Rplus Rminus Rmult Rdiv INR.
Definition std_r (l : list R) : R := sqrt (var_r l).
Definition sigmaclip_r (lo hi : Z) (sl sh : bool) (reps : Z) (l : list R) : R * R :=
  clip R 0%R Rplus Rdiv INR std_r (keep_r lo hi sl sh) (Z.to_nat reps) l.
