(* C14 - lemmas and tactics used by the per-case certified correspondence (tools/harness/c14.py):
   every generated goal is about the model functions model_px / blank_px themselves; the side
   conditions (guards, window membership, thresholds) and the final value are real inequalities
   between explicit numbers, closed by `interval` and checked by the kernel. *)
From Coq Require Import Reals ZArith Bool List String Lra Lia.
From Flocq Require Import Raux.
From Interval Require Import Tactic.
From Aegean Require Import Lib.RBase Gen.Gauss Gen.AeRes Model.AeRes Proofs.AeResProofs.
Import ListNotations.
Open Scope R_scope.

Lemma covers_true s0 s1 s i j : covers_P s0 s1 s i j -> covers s0 s1 s i j = true.
Proof. apply covers_iff. Qed.
Lemma covers_false s0 s1 s i j : ~ covers_P s0 s1 s i j -> covers s0 s1 s i j = false.
Proof. intros H. apply not_true_is_false. rewrite covers_iff. exact H. Qed.
Lemma contrib_in s0 s1 s i j : covers_P s0 s1 s i j -> contrib s0 s1 s i j = term s i j.
Proof. intros H. unfold contrib. rewrite covers_true by exact H. reflexivity. Qed.
Lemma contrib_out s0 s1 s i j : ~ covers_P s0 s1 s i j -> contrib s0 s1 s i j = 0.
Proof. intros H. unfold contrib. rewrite covers_false by exact H. reflexivity. Qed.

Definition covhit s0 s1 mode s i j : bool := covers s0 s1 s i j && hit mode s i j.
Lemma blank_cons s0 s1 mode s cat i j :
  blank_px s0 s1 mode (s :: cat) i j = covhit s0 s1 mode s i j || blank_px s0 s1 mode cat i j.
Proof. reflexivity. Qed.
Lemma blank_nil s0 s1 mode i j : blank_px s0 s1 mode [] i j = false.
Proof. reflexivity. Qed.
Lemma covhit_true s0 s1 mode s i j : covers_P s0 s1 s i j -> hit_P mode s i j -> covhit s0 s1 mode s i j = true.
Proof. intros H1 H2. unfold covhit. rewrite covers_true by exact H1. apply hit_iff, H2. Qed.
Lemma covhit_false_cov s0 s1 mode s i j : ~ covers_P s0 s1 s i j -> covhit s0 s1 mode s i j = false.
Proof. intros H. unfold covhit. rewrite covers_false by exact H. reflexivity. Qed.
Lemma covhit_false_hit s0 s1 mode s i j : ~ hit_P mode s i j -> covhit s0 s1 mode s i j = false.
Proof. intros H. unfold covhit. apply andb_false_intro2, not_true_is_false. rewrite hit_iff. exact H. Qed.

(* interval's default precision (53 bits, on primitive floats) first; 80 bits when that is not enough *)
Ltac c14_itv := first [ interval | interval with (i_prec 80) ].
Ltac c14_simpl := cbn [s_peak s_rms s_xo s_yo s_sx s_sy s_theta]; unfold xoff, yoff, rad.
Ltac c14_num := first [ lia | lra | c14_itv ].
Ltac c14_cov := unfold covers_P, accepted_P, window_P; c14_simpl; repeat split; c14_num.
Ltac c14_refute :=
  first [ lia | lra
        | match goal with
          | H : (?a <= ?b)%R |- False => solve [ apply (Rle_not_lt _ _ H); c14_itv ]
          | H : (?a < ?b)%R |- False => solve [ apply (Rlt_not_le _ _ H); c14_itv ]
          end ].
Ltac c14_ncov :=
  unfold covers_P, accepted_P, window_P; c14_simpl;
  intros [[[? ?] [? ?]] [[[? ?] [? ?]] [[? ?] [? ?]]]]; c14_refute.
Ltac c14_value := unfold term, px_model, gauss, FWHM2CC, rad; c14_simpl; cbv zeta.
Ltac c14_hit := unfold hit_P; c14_value; c14_itv.
Ltac c14_nhit := unfold hit_P; c14_value; intros H; c14_refute.

(* Goal: Rabs (model_px s0 s1 [..] i j - y) <= tol.
   c14_start ; one c14_in / c14_out per source (a hint from the harness which of the two to try first;
   the other is tried when the hinted one does not prove) ; c14_done *)
Ltac c14_start := rewrite model_is_sum; cbn [map]; rewrite ?Rsum_cons, ?Rsum_nil.
Ltac c14_c1 a b s i j := rewrite (contrib_in a b s i j) by c14_cov.
Ltac c14_c2 a b s i j := rewrite (contrib_out a b s i j) by c14_ncov.
Ltac c14_in := try match goal with |- context [contrib ?a ?b ?s ?i ?j] => first [ c14_c1 a b s i j | c14_c2 a b s i j ] end.
Ltac c14_out := try match goal with |- context [contrib ?a ?b ?s ?i ?j] => first [ c14_c2 a b s i j | c14_c1 a b s i j ] end.
Ltac c14_done := repeat c14_in; c14_value; c14_itv.

(* Goal: blank_px s0 s1 mode [..] i j = b.   hints: c14_bt (blanks), c14_bw (not evaluated), c14_bh (below threshold) *)
Ltac c14_bstart := rewrite ?blank_cons, ?blank_nil.
Ltac c14_b1 a b m s i j := rewrite (covhit_true a b m s i j); [| solve [c14_cov] | solve [c14_hit]].
Ltac c14_b2 a b m s i j := rewrite (covhit_false_cov a b m s i j) by c14_ncov.
Ltac c14_b3 a b m s i j := rewrite (covhit_false_hit a b m s i j) by c14_nhit.
Ltac c14_bt := try match goal with |- context [covhit ?a ?b ?m ?s ?i ?j] =>
                     first [ c14_b1 a b m s i j | c14_b2 a b m s i j | c14_b3 a b m s i j ] end.
Ltac c14_bw := try match goal with |- context [covhit ?a ?b ?m ?s ?i ?j] =>
                     first [ c14_b2 a b m s i j | c14_b3 a b m s i j | c14_b1 a b m s i j ] end.
Ltac c14_bh := try match goal with |- context [covhit ?a ?b ?m ?s ?i ?j] =>
                     first [ c14_b3 a b m s i j | c14_b2 a b m s i j | c14_b1 a b m s i j ] end.
Ltac c14_bdone := repeat c14_bw; reflexivity.

(* smoke tests (also the non-vacuity of the tactics): with the hints the harness would give, and with wrong ones *)
Goal Rabs (model_px 12 14 [mkSrc 2 (1 / 10) 6 7 3 2 30; mkSrc 1 0 40 7 3 2 30] 5 6 - 2) <= 1 / 1000000.
Proof. c14_start. c14_done. Qed.
Goal Rabs (model_px 12 14 [mkSrc 2 (1 / 10) 6 7 (1 / 10) (1 / 10) 30] 11 13 - 0) <= 0.
Proof. c14_start. c14_out. c14_done. Qed.
Goal blank_px 12 14 (ByFrac (1 / 2)) [mkSrc (-2) (1 / 10) 6 7 3 2 30] 5 6 = true.
Proof. c14_bstart. c14_bt. c14_bdone. Qed.
Goal blank_px 12 14 (BySigma 4) [mkSrc (-2) (1 / 10) 6 7 3 2 30; mkSrc (-2) (1 / 10) 60 7 3 2 30] 8 9 = false.
Proof. c14_bstart. c14_bh. c14_bdone. Qed.
Goal Rabs (model_px 12 14 [mkSrc 2 (1 / 10) 6 7 3 2 30; mkSrc 1 0 40 7 3 2 30] 5 6 - 2) <= 1 / 1000000.
Proof. c14_start. c14_in. c14_out. c14_done. Qed.
Goal Rabs (model_px 12 14 [mkSrc 2 (1 / 10) 6 7 3 2 30; mkSrc 1 0 40 7 3 2 30] 5 6 - 2) <= 1 / 1000000.
Proof. c14_start. c14_out. c14_in. c14_done. Qed.
Goal blank_px 12 14 (BySigma 4) [mkSrc (-2) (1 / 10) 6 7 3 2 30; mkSrc (-2) (1 / 10) 60 7 3 2 30; mkSrc (-2) (1 / 10) 6 7 3 2 30] 8 9 = false.
Proof. c14_bstart. c14_bh. c14_bw. c14_bh. c14_bdone. Qed.
Goal blank_px 12 14 (ByFrac 0) [mkSrc (-2) (1 / 10) 6 7 3 2 30] 11 13 = true.
Proof. c14_bstart. c14_bt. c14_bdone. Qed.
