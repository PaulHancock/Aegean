(* C14 - proofs about the AeRes model (Model/AeRes.v).  First one characterising lemma `leaf_*` per generated leaf of
   Gen/AeRes.v; the leaves are opaque in the rest of this file, so here an edited leaf breaks exactly that lemma
   (Proofs/AeResCert.v unfolds px_model, gauss and FWHM2CC again, to evaluate concrete cases). *)
From Coq Require Import Reals ZArith Bool List String Lra Lia Psatz.
From Flocq Require Import Raux.
From Interval Require Import Tactic.
From Aegean Require Import Lib.RBase Lib.Lists Gen.Gauss Gen.AeRes Model.AeRes.
Import ListNotations.
Open Scope R_scope.

Lemma andb_iff (a b : bool) (A B : Prop) : (a = true <-> A) -> (b = true <-> B) -> (a && b = true <-> A /\ B).
Proof. intros <- <-. apply andb_true_iff. Qed.
Lemma negb_iff (a : bool) (A : Prop) : (a = false <-> A) -> (negb a = true <-> A).
Proof. intros <-. apply negb_true_iff. Qed.

Lemma leaf_FWHM2CC : FWHM2CC = 1 / (2 * sqrt (2 * ln 2)).
Proof. reflexivity. Qed.
Lemma leaf_ell_args ra dec a b pa : ell_args ra dec a b pa = (ra, dec, a / 3600, b / 3600, pa).
Proof. reflexivity. Qed.
Lemma leaf_skip_x xo s : skip_x xo s = false <-> 1 / 2 <= xo < s + 1 / 2.
Proof. unfold skip_x. rewrite negb_false_iff. apply andb_iff; [apply Rleb_true|apply Rltb_true]. Qed.
Lemma leaf_skip_y yo s : skip_y yo s = false <-> 1 / 2 <= yo < s + 1 / 2.
Proof. exact (leaf_skip_x yo s). Qed.

(* half-sizes of the evaluated window, in pixels; sx, sy are FWHM in pixels *)
Definition xoff (sx sy theta : R) : R := 5 * (Rabs (sx * cos (rad theta)) + Rabs (sy * sin (rad theta))).
Definition yoff (sx sy theta : R) : R := 5 * (Rabs (sx * sin (rad theta)) + Rabs (sy * cos (rad theta))).

Lemma Rmax_IZR a b : Rmax (IZR a) (IZR b) = IZR (Z.max a b).
Proof. apply Z.max_case_strong; intros H; [apply Rmax_left | apply Rmax_right]; apply IZR_le, H. Qed.
Lemma Rmin_IZR a b : Rmin (IZR a) (IZR b) = IZR (Z.min a b).
Proof. apply Z.min_case_strong; intros H; [apply Rmin_left | apply Rmin_right]; apply IZR_le, H. Qed.
Lemma floor_le_iff a i : (Zfloor a <= i)%Z <-> a < IZR i + 1.
Proof.
  split; intros H.
  - apply IZR_le in H. pose proof (Zfloor_ub a). lra.
  - apply Z.lt_succ_r, lt_IZR. rewrite succ_IZR. pose proof (Zfloor_lb a). lra.
Qed.
Lemma lt_ceil_iff b i : (i < Zceil b)%Z <-> IZR i < b.
Proof.
  split; intros H.
  - apply Z.le_succ_l, IZR_le in H. rewrite succ_IZR in H. pose proof (Zceil_lb b). lra.
  - apply lt_IZR. pose proof (Zceil_ub b). lra.
Qed.

(* the pixel range np.mgrid[int(xmin):int(xmax), int(ymin):int(ymax)] without floor/ceil/int: one axis *)
Lemma axis_window lo hi (n i : Z) :
  (Ztrunc (Rmax (IZR (Zfloor lo)) 0) <= i < Ztrunc (Rmin (IZR (Zceil hi)) (IZR n)))%Z <->
  (0 <= i < n)%Z /\ lo < IZR i + 1 /\ IZR i < hi.
Proof.
  change 0 with (IZR 0). rewrite Rmax_IZR, Rmin_IZR, !Ztrunc_IZR, Z.max_lub_iff, Z.min_glb_lt_iff, floor_le_iff, lt_ceil_iff. tauto.
Qed.
Lemma leaf_window xo yo sx sy theta (s0 s1 : Z) x0 x1 y0 y1 :
  window xo yo sx sy theta (IZR s0) (IZR s1) = (x0, x1, y0, y1) ->
  forall i j : Z,
    ((x0 <= i < x1)%Z <-> ((0 <= i < s0)%Z /\ xo - xoff sx sy theta < IZR i + 1 /\ IZR i < xo + xoff sx sy theta))
    /\ ((y0 <= j < y1)%Z <-> ((0 <= j < s1)%Z /\ yo - yoff sx sy theta < IZR j + 1 /\ IZR j < yo + yoff sx sy theta)).
Proof.
  unfold window. cbv zeta. fold (xoff sx sy theta). fold (yoff sx sy theta).
  intros H. injection H as <- <- <- <-. intros i j. split; apply axis_window.
Qed.

Lemma leaf_px_model x y peak xo yo sx sy theta :
  px_model x y peak xo yo sx sy theta = gauss x y peak (xo - 1) (yo - 1) (sx * FWHM2CC) (sy * FWHM2CC) theta.
Proof. reflexivity. Qed.
Lemma leaf_m_init : m_init = 0.
Proof. reflexivity. Qed.
Lemma leaf_accum m v : accum m v = m + v.
Proof. reflexivity. Qed.
Lemma leaf_mask_frac_hit g f p : mask_frac_hit g f p = true <-> Rabs (f * p) <= Rabs g.
Proof. unfold mask_frac_hit. apply Rleb_true. Qed.
Lemma leaf_mask_sigma_hit g k rms : mask_sigma_hit g k rms = true <-> k * rms <= Rabs g.
Proof. unfold mask_sigma_hit. apply Rleb_true. Qed.
Lemma leaf_residual_px add mask d m :
  residual_px add mask d m = if (add || mask)%bool then d + m else d - m.
Proof. reflexivity. Qed.
(* load_sources: the default column map sends every parameter to its catalogue field *)
Definition default_colmap (p : string) : string :=
  match find (fun e => String.eqb (fst e) p) (combine load_params load_defaults) with Some e => snd e | None => p end.
Lemma leaf_default_colmap : map default_colmap rename_from = rename_to.
Proof. reflexivity. Qed.
Lemma leaf_rename_to : rename_to = ["ra"; "dec"; "peak_flux"; "a"; "b"; "pa"]%string.
Proof. reflexivity. Qed.
Lemma leaf_rename_len : List.length rename_from = List.length rename_to.
Proof. reflexivity. Qed.
Lemma leaf_rename_nodup : NoDup rename_to.
Proof. rewrite leaf_rename_to. repeat constructor; cbn; intuition discriminate. Qed.

Definition quad (dx dy sgx sgy theta : R) : R :=
  ((dx * cos (rad theta) + dy * sin (rad theta)) / sgx) ^ 2 + ((dx * sin (rad theta) - dy * cos (rad theta)) / sgy) ^ 2.
Lemma leaf_gauss x y amp xo yo sgx sgy theta : sgx <> 0 -> sgy <> 0 ->
  gauss x y amp xo yo sgx sgy theta = amp * exp (- quad (x - xo) (y - yo) sgx sgy theta / 2).
Proof.
  intros Hx Hy. unfold gauss, quad. cbv zeta. f_equal. f_equal. field. split; assumption.
Qed.

Local Opaque FWHM2CC ell_args skip_x skip_y window px_model m_init accum mask_frac_hit mask_sigma_hit residual_px
       rename_from rename_to gauss.

Definition accepted_P (s0 s1 : Z) (s : psrc) : Prop :=
  1 / 2 <= s_xo s < IZR s0 + 1 / 2 /\ 1 / 2 <= s_yo s < IZR s1 + 1 / 2.
Definition window_P (s0 s1 : Z) (s : psrc) (i j : Z) : Prop :=
  ((0 <= i < s0)%Z /\ s_xo s - xoff (s_sx s) (s_sy s) (s_theta s) < IZR i + 1 /\ IZR i < s_xo s + xoff (s_sx s) (s_sy s) (s_theta s))
  /\ ((0 <= j < s1)%Z /\ s_yo s - yoff (s_sx s) (s_sy s) (s_theta s) < IZR j + 1 /\ IZR j < s_yo s + yoff (s_sx s) (s_sy s) (s_theta s)).
Definition covers_P s0 s1 s i j : Prop := accepted_P s0 s1 s /\ window_P s0 s1 s i j.

Lemma accepted_iff s0 s1 s : accepted s0 s1 s = true <-> accepted_P s0 s1 s.
Proof. apply andb_iff; apply negb_iff; [apply leaf_skip_x|apply leaf_skip_y]. Qed.
Lemma in_window_iff s0 s1 s i j : in_window s0 s1 s i j = true <-> window_P s0 s1 s i j.
Proof.
  unfold in_window, window_P.
  destruct (window (s_xo s) (s_yo s) (s_sx s) (s_sy s) (s_theta s) (IZR s0) (IZR s1)) as [[[x0 x1] y0] y1] eqn:E.
  destruct (leaf_window _ _ _ _ _ _ _ _ _ _ _ E i j) as [<- <-].
  rewrite <- andb_assoc. apply andb_iff; apply andb_iff; apply Z.leb_le || apply Z.ltb_lt.
Qed.
Lemma covers_iff s0 s1 s i j : covers s0 s1 s i j = true <-> covers_P s0 s1 s i j.
Proof. apply andb_iff; [apply accepted_iff|apply in_window_iff]. Qed.
Lemma covers_in_image s0 s1 s i j : covers s0 s1 s i j = true -> (0 <= i < s0)%Z /\ (0 <= j < s1)%Z.
Proof. rewrite covers_iff. unfold covers_P, window_P. tauto. Qed.

Lemma Rsum_app l1 l2 : Rsum (l1 ++ l2) = Rsum l1 + Rsum l2.
Proof. unfold Rsum. induction l1 as [|a l IH]; cbn [app fold_right]; [ring|rewrite IH; ring]. Qed.

Lemma Rsum_nil : Rsum [] = 0.
Proof. reflexivity. Qed.
Lemma Rsum_cons a l : Rsum (a :: l) = a + Rsum l.
Proof. reflexivity. Qed.

Lemma fold_model s0 s1 i j cat : forall m,
  fold_left (fun m s => if covers s0 s1 s i j then accum m (term s i j) else m) cat m
  = m + Rsum (map (fun s => contrib s0 s1 s i j) cat).
Proof.
  induction cat as [|s cat IH]; intros m; cbn [fold_left map].
  - rewrite Rsum_nil. ring.
  - rewrite IH, Rsum_cons. unfold contrib at 2.
    destruct (covers s0 s1 s i j); [rewrite (leaf_accum m (term s i j))|]; ring.
Qed.

Lemma model_is_sum s0 s1 cat i j :
  model_px s0 s1 cat i j = Rsum (map (fun s => contrib s0 s1 s i j) cat).
Proof. unfold model_px. rewrite fold_model, leaf_m_init. ring. Qed.

(* a contribution is the generated Gaussian with the catalogued peak, centred on the 0-based pixel
   position (xo-1, yo-1), with sigma = FWHM2CC * (FWHM axis in pixels) and the pixel-frame angle *)
Lemma term_is_gauss s i j :
  term s i j = gauss (IZR i) (IZR j) (s_peak s) (s_xo s - 1) (s_yo s - 1) (s_sx s * FWHM2CC) (s_sy s * FWHM2CC) (s_theta s).
Proof. unfold term. apply leaf_px_model. Qed.

Lemma model_is_sum_full (ell : R * R * R * R * R -> R * R * R * R * R) s0 s1 (rows : list row) i j :
  model_px s0 s1 (map (to_src ell) rows) i j =
  Rsum (map (fun r =>
    let '(xo, yo, sx, sy, theta) := ell (r_ra r, r_dec r, r_a r / 3600, r_b r / 3600, r_pa r) in
    if covers s0 s1 (mkSrc (r_peak r) (r_rms r) xo yo sx sy theta) i j
    then gauss (IZR i) (IZR j) (r_peak r) (xo - 1) (yo - 1) (sx * (1 / (2 * sqrt (2 * ln 2)))) (sy * (1 / (2 * sqrt (2 * ln 2)))) theta
    else 0) rows).
Proof.
  rewrite model_is_sum, map_map. f_equal. apply map_ext. intros r.
  unfold to_src. rewrite leaf_ell_args.
  destruct (ell (r_ra r, r_dec r, r_a r / 3600, r_b r / 3600, r_pa r)) as [[[[xo yo] sx] sy] theta].
  unfold contrib. rewrite term_is_gauss, leaf_FWHM2CC. reflexivity.
Qed.

Lemma additive s0 s1 c1 c2 i j :
  model_px s0 s1 (c1 ++ c2) i j = model_px s0 s1 c1 i j + model_px s0 s1 c2 i j.
Proof. rewrite !model_is_sum, map_app, Rsum_app. reflexivity. Qed.

Lemma model_nil s0 s1 i j : model_px s0 s1 [] i j = 0.
Proof. rewrite model_is_sum. reflexivity. Qed.

(* order of the catalogue does not matter either (over R) *)
Lemma model_swap s0 s1 c1 c2 i j : model_px s0 s1 (c1 ++ c2) i j = model_px s0 s1 (c2 ++ c1) i j.
Proof. rewrite !additive. ring. Qed.

Definition centre_pixel (c : R) : Z := Zfloor (c - 1 + / 2).   (* pixel k covers [k - 1/2, k + 1/2) *)

Lemma floor_range a (n : Z) : (0 <= Zfloor a < n)%Z <-> 0 <= a < IZR n.
Proof.
  rewrite Z.lt_le_pred, floor_le_iff, <- Z.sub_1_r, minus_IZR.
  split; intros [H1 H2]; split; try lra.
  - apply Rle_trans with (2 := Zfloor_lb a), IZR_le, H1.
  - apply (Zfloor_lub 0), H1.
Qed.

Lemma offimage_skipped s0 s1 s :
  accepted s0 s1 s = true <-> (0 <= centre_pixel (s_xo s) < s0)%Z /\ (0 <= centre_pixel (s_yo s) < s1)%Z.
Proof.
  rewrite accepted_iff. unfold accepted_P, centre_pixel. rewrite !floor_range. lra.
Qed.

Lemma rejected_contributes_nothing s0 s1 s i j : accepted s0 s1 s = false -> contrib s0 s1 s i j = 0.
Proof. intros H. unfold contrib, covers. rewrite H. reflexivity. Qed.

Lemma rejected_ignored s0 s1 s cat i j : accepted s0 s1 s = false ->
  model_px s0 s1 (s :: cat) i j = model_px s0 s1 cat i j.
Proof.
  intros H. rewrite !model_is_sum. cbn [map]. rewrite Rsum_cons, rejected_contributes_nothing by exact H. ring.
Qed.

Lemma add_sub_inverse d m : residual_px false false (residual_px true false d m) m = d.
Proof. rewrite !leaf_residual_px. cbn [orb]. ring. Qed.
Lemma sub_add_inverse d m : residual_px true false (residual_px false false d m) m = d.
Proof. rewrite !leaf_residual_px. cbn [orb]. ring. Qed.
Lemma subtract_own_model s0 s1 cat i j :
  residual false None s0 s1 cat (Rsum (map (fun s => contrib s0 s1 s i j) cat)) i j = Some 0.
Proof.
  unfold residual, make_model_px. cbn [option_map]. rewrite leaf_residual_px, model_is_sum. cbn [orb]. f_equal. ring.
Qed.

Definition hit_P (mode : mask_mode) (s : psrc) (i j : Z) : Prop :=
  match mode with
  | ByFrac f => Rabs (f * s_peak s) <= Rabs (term s i j)
  | BySigma g => g * s_rms s <= Rabs (term s i j)
  end.
Lemma hit_iff mode s i j : hit mode s i j = true <-> hit_P mode s i j.
Proof. destruct mode; cbn [hit hit_P]; [apply leaf_mask_frac_hit|apply leaf_mask_sigma_hit]. Qed.

Lemma mask_exact_window s0 s1 mode cat i j :
  blank_px s0 s1 mode cat i j = true <-> exists s, In s cat /\ covers_P s0 s1 s i j /\ hit_P mode s i j.
Proof.
  unfold blank_px. rewrite existsb_exists.
  split; intros (s & Hin & H); exists s; (split; [exact Hin|]); apply (andb_iff _ _ _ _ (covers_iff s0 s1 s i j) (hit_iff mode s i j)), H.
Qed.

Lemma mask_residual s0 s1 add mode cat d i j :
  residual add (Some mode) s0 s1 cat d i j = if blank_px s0 s1 mode cat i j then None else Some d.
Proof.
  unfold residual, make_model_px. destruct (blank_px s0 s1 mode cat i j); cbn [option_map]; [reflexivity|].
  rewrite leaf_residual_px, leaf_m_init, orb_true_r. f_equal. ring.
Qed.

Definition k_window : R := 5 / FWHM2CC.     (* window half-size in units of sigma: 5 FWHM *)

(* k_window = 10 sqrt (2 ln 2), so that exp (- k_window^2 / 2) = exp (- 100 ln 2) *)
Lemma sqrt_2ln2_gt_1 : 1 < sqrt (2 * ln 2).
Proof. pose proof ln_lt_2. rewrite <- sqrt_1. apply sqrt_lt_1_alt. lra. Qed.
Lemma FWHM2CC_pos : 0 < FWHM2CC.
Proof. rewrite leaf_FWHM2CC. pose proof sqrt_2ln2_gt_1. apply Rdiv_lt_0_compat; lra. Qed.
Lemma k_window_eq : k_window = 10 * sqrt (2 * ln 2).
Proof. unfold k_window. rewrite leaf_FWHM2CC. pose proof sqrt_2ln2_gt_1. field. lra. Qed.
Lemma k_window_ge_5 : 5 < k_window.
Proof. rewrite k_window_eq. pose proof sqrt_2ln2_gt_1. lra. Qed.
Lemma k_window_value : Rabs (k_window - 11774100225 / 1000000000) <= 1 / 1000000000.
Proof. unfold k_window. rewrite leaf_FWHM2CC. interval with (i_prec 60). Qed.
Lemma window_tail_eq : exp (- (k_window ^ 2) / 2) = / 2 ^ 100.
Proof.
  pose proof ln_lt_2. replace (- (k_window ^ 2) / 2) with (- (INR 100 * ln 2)).
  - rewrite exp_Ropp, <- ln_pow, exp_ln by (try apply pow_lt; lra). reflexivity.
  - rewrite k_window_eq, Rpow_mult_distr, pow2_sqrt, INR_IZR_INZ by lra. change (IZR (Z.of_nat 100)) with 100. lra.
Qed.
Lemma window_tail : exp (- (k_window ^ 2) / 2) <= 1 / 10 ^ 30.
Proof. rewrite window_tail_eq. lra. Qed.

(* Cauchy-Schwarz core: if dx = a p + b q and |dx| >= K (|p| + |q|) then a^2 + b^2 >= K^2 *)
Lemma box_quad dx a b p q K :
  dx = a * p + b * q -> 0 < Rabs p + Rabs q -> 0 <= K -> K * (Rabs p + Rabs q) <= Rabs dx ->
  K ^ 2 <= a ^ 2 + b ^ 2.
Proof.
  intros Hdx HB HK Hout. set (B := Rabs p + Rabs q) in *.
  assert (H1 : dx ^ 2 <= (a ^ 2 + b ^ 2) * (p ^ 2 + q ^ 2)).
  { subst dx. pose proof (pow2_ge_0 (a * q - b * p)). nra. }
  assert (H2 : p ^ 2 + q ^ 2 <= B ^ 2).
  { unfold B. pose proof (Rabs_pos p). pose proof (Rabs_pos q).
    rewrite <- (pow2_abs p), <- (pow2_abs q). nra. }
  assert (H3 : (K * B) ^ 2 <= dx ^ 2).
  { rewrite <- (pow2_abs dx). apply pow_incr. split; [nra|exact Hout]. }
  pose proof (pow2_ge_0 a). pose proof (pow2_ge_0 b).
  apply Rmult_le_reg_r with (B ^ 2); nra.
Qed.

Lemma unit_box_pos a b u v : 0 < a -> 0 < b -> u ^ 2 + v ^ 2 = 1 -> 0 < Rabs (a * u) + Rabs (b * v).
Proof.
  intros Ha Hb H. rewrite !Rabs_mult, (Rabs_pos_eq a), (Rabs_pos_eq b) by lra.
  pose proof (Rabs_pos u). pose proof (Rabs_pos v). destruct (Req_dec u 0) as [->|Hu].
  - assert (0 < Rabs v) by (apply Rabs_pos_lt; nra). nra.
  - assert (0 < Rabs u) by (apply Rabs_pos_lt; exact Hu). nra.
Qed.
(* box_quad for an offset d = P u + Q v along a unit direction (u, v) of the rotated ellipse, with the half-size of the
   window as bound: P and Q are the components of the offset along the axes, in pixels *)
Lemma window_quad d P Q sx sy u v : 0 < sx -> 0 < sy -> u ^ 2 + v ^ 2 = 1 ->
  d = P * u + Q * v -> 5 * (Rabs (sx * u) + Rabs (sy * v)) <= Rabs d ->
  k_window ^ 2 <= (P / (sx * FWHM2CC)) ^ 2 + (Q / (sy * FWHM2CC)) ^ 2.
Proof.
  intros Hx Hy Huv Hd Hout. pose proof FWHM2CC_pos as HF. pose proof k_window_ge_5.
  pose proof (unit_box_pos sx sy u v Hx Hy Huv) as HB.
  assert (E : forall t, Rabs (FWHM2CC * t) = FWHM2CC * Rabs t) by (intros t; rewrite Rabs_mult, (Rabs_pos_eq FWHM2CC); lra).
  apply (box_quad d _ _ (FWHM2CC * (sx * u)) (FWHM2CC * (sy * v))); rewrite ?E.
  - rewrite Hd. field. lra.
  - nra.
  - lra.
  - apply Rle_trans with (2 := Hout), Req_le. unfold k_window. field. lra.
Qed.

(* bounding box of the rotated ellipse: a point whose x-offset (or y-offset) from the centre is at least
   the window half-size lies on or outside the k_window-sigma ellipse *)
Lemma outside_box_quad dx dy sx sy theta : 0 < sx -> 0 < sy ->
  xoff sx sy theta <= Rabs dx \/ yoff sx sy theta <= Rabs dy ->
  k_window ^ 2 <= quad dx dy (sx * FWHM2CC) (sy * FWHM2CC) theta.
Proof.
  intros Hx Hy Hout. unfold quad, xoff, yoff in *.
  set (c := cos (rad theta)) in *. set (s := sin (rad theta)) in *.
  assert (Hcs : c ^ 2 + s ^ 2 = 1) by (pose proof (sin2_cos2 (rad theta)) as H; rewrite !Rsqr_pow2 in H; unfold c, s; lra).
  destruct Hout as [Hout|Hout].
  - apply (window_quad dx _ _ sx sy c s); try assumption.
    transitivity (dx * (c ^ 2 + s ^ 2)); [rewrite Hcs|]; ring.
  - apply (window_quad dy _ _ sx sy s (- c)); try assumption; [lra | | rewrite Ropp_mult_distr_r_reverse, Rabs_Ropp; exact Hout].
    transitivity (dy * (c ^ 2 + s ^ 2)); [rewrite Hcs|]; ring.
Qed.

Lemma not_window_outside s0 s1 s i j : (0 <= i < s0)%Z -> (0 <= j < s1)%Z -> in_window s0 s1 s i j = false ->
  xoff (s_sx s) (s_sy s) (s_theta s) <= Rabs (IZR i - (s_xo s - 1))
  \/ yoff (s_sx s) (s_sy s) (s_theta s) <= Rabs (IZR j - (s_yo s - 1)).
Proof.
  intros Hi Hj Hw.
  assert (Hn : ~ window_P s0 s1 s i j) by (rewrite <- in_window_iff, Hw; discriminate).
  set (X := xoff (s_sx s) (s_sy s) (s_theta s)) in *. set (Y := yoff (s_sx s) (s_sy s) (s_theta s)) in *.
  destruct (Rle_lt_dec X (Rabs (IZR i - (s_xo s - 1)))) as [|Hx]; [left; assumption|].
  destruct (Rle_lt_dec Y (Rabs (IZR j - (s_yo s - 1)))) as [|Hy]; [right; assumption|].
  exfalso. apply Hn. apply Rabs_def2 in Hx, Hy. unfold window_P. fold X Y.
  split; (split; [assumption|lra]).
Qed.

Lemma term_quad s i j : 0 < s_sx s -> 0 < s_sy s ->
  term s i j = s_peak s * exp (- quad (IZR i - (s_xo s - 1)) (IZR j - (s_yo s - 1))
                                     (s_sx s * FWHM2CC) (s_sy s * FWHM2CC) (s_theta s) / 2).
Proof.
  intros Hx Hy. pose proof FWHM2CC_pos. rewrite term_is_gauss. apply leaf_gauss; apply Rmult_integral_contrapositive_currified; lra.
Qed.

Lemma not_window_far s0 s1 s i j : 0 < s_sx s -> 0 < s_sy s -> (0 <= i < s0)%Z -> (0 <= j < s1)%Z ->
  in_window s0 s1 s i j = false ->
  k_window ^ 2 <= quad (IZR i - (s_xo s - 1)) (IZR j - (s_yo s - 1)) (s_sx s * FWHM2CC) (s_sy s * FWHM2CC) (s_theta s).
Proof. intros Hx Hy Hi Hj Hw. apply outside_box_quad, (not_window_outside s0 s1); assumption. Qed.

Lemma window_bound s0 s1 s i j : 0 < s_sx s -> 0 < s_sy s -> (0 <= i < s0)%Z -> (0 <= j < s1)%Z ->
  in_window s0 s1 s i j = false ->
  Rabs (term s i j) <= Rabs (s_peak s) * exp (- (k_window ^ 2) / 2).
Proof.
  intros Hx Hy Hi Hj Hw. rewrite term_quad by assumption.
  rewrite Rabs_mult, (Rabs_pos_eq (exp _)) by (left; apply exp_pos).
  apply Rmult_le_compat_l; [apply Rabs_pos|]. apply exp_le.
  pose proof (not_window_far s0 s1 s i j Hx Hy Hi Hj Hw). lra.
Qed.

(* "evaluated out to 5 sigma": every image pixel within the 5-sigma ellipse (indeed within the
   k_window-sigma ellipse, k_window = 5 FWHM = 11.77 sigma) of an accepted source is evaluated *)
Lemma five_sigma_evaluated s0 s1 s i j : 0 < s_sx s -> 0 < s_sy s -> (0 <= i < s0)%Z -> (0 <= j < s1)%Z ->
  quad (IZR i - (s_xo s - 1)) (IZR j - (s_yo s - 1)) (s_sx s * FWHM2CC) (s_sy s * FWHM2CC) (s_theta s) <= 5 ^ 2 ->
  in_window s0 s1 s i j = true.
Proof.
  intros Hx Hy Hi Hj Hq. destruct (in_window s0 s1 s i j) eqn:Hw; [reflexivity|exfalso].
  pose proof (not_window_far s0 s1 s i j Hx Hy Hi Hj Hw). pose proof k_window_ge_5. nra.
Qed.

Definition full_term (s0 s1 : Z) (s : psrc) (i j : Z) : R := if accepted s0 s1 s then term s i j else 0.
Definition regular (s : psrc) : Prop := 0 < s_sx s /\ 0 < s_sy s.

Lemma contrib_full_term s0 s1 s i j : regular s -> (0 <= i < s0)%Z -> (0 <= j < s1)%Z ->
  Rabs (contrib s0 s1 s i j - full_term s0 s1 s i j) <= exp (- (k_window ^ 2) / 2) * Rabs (s_peak s).
Proof.
  intros [Hx Hy] Hi Hj.
  assert (H0 : 0 <= exp (- (k_window ^ 2) / 2) * Rabs (s_peak s)) by (apply Rmult_le_pos; [left; apply exp_pos|apply Rabs_pos]).
  unfold contrib, full_term, covers.
  destruct (accepted s0 s1 s); cbn [andb]; [destruct (in_window s0 s1 s i j) eqn:Hw|];
    rewrite ?Rminus_diag_eq, ?Rabs_R0 by reflexivity; try exact H0.
  rewrite Rminus_0_l, Rabs_Ropp, Rmult_comm. apply (window_bound s0 s1); assumption.
Qed.
Lemma Rsum_map_abs_le {A} (f g h : A -> R) E l : (forall a, In a l -> Rabs (f a - g a) <= E * h a) ->
  Rabs (Rsum (map f l) - Rsum (map g l)) <= E * Rsum (map h l).
Proof.
  induction l as [|a l IH]; intros H; cbn [map]; rewrite ?Rsum_nil, ?Rsum_cons.
  - rewrite Rminus_0_r, Rabs_R0. lra.
  - replace (f a + Rsum (map f l) - (g a + Rsum (map g l))) with ((f a - g a) + (Rsum (map f l) - Rsum (map g l))) by ring.
    pose proof (Rabs_triang (f a - g a) (Rsum (map f l) - Rsum (map g l))).
    pose proof (H a (or_introl eq_refl)). pose proof (IH (fun b Hb => H b (or_intror Hb))). lra.
Qed.

Lemma truncation_error s0 s1 cat i j : Forall regular cat -> (0 <= i < s0)%Z -> (0 <= j < s1)%Z ->
  Rabs (model_px s0 s1 cat i j - Rsum (map (fun s => full_term s0 s1 s i j) cat))
  <= exp (- (k_window ^ 2) / 2) * Rsum (map (fun s => Rabs (s_peak s)) cat).
Proof.
  intros Hreg Hi Hj. rewrite model_is_sum. apply Rsum_map_abs_le.
  intros s Hs. apply contrib_full_term; [exact (proj1 (Forall_forall _ _) Hreg s Hs) | exact Hi | exact Hj].
Qed.

(* mask mode is exact on the whole image when every threshold is above the truncation level *)
Definition threshold (mode : mask_mode) (s : psrc) : R :=
  match mode with ByFrac f => Rabs (f * s_peak s) | BySigma g => g * s_rms s end.
Definition resolved (mode : mask_mode) (s : psrc) : Prop :=
  regular s /\ Rabs (s_peak s) * exp (- (k_window ^ 2) / 2) < threshold mode s.

Lemma hit_P_threshold mode s i j : hit_P mode s i j <-> threshold mode s <= Rabs (term s i j).
Proof. destruct mode; reflexivity. Qed.

Lemma mask_exact s0 s1 mode cat i j : Forall (resolved mode) cat -> (0 <= i < s0)%Z -> (0 <= j < s1)%Z ->
  (blank_px s0 s1 mode cat i j = true <->
   exists s, In s cat /\ accepted s0 s1 s = true /\ threshold mode s <= Rabs (term s i j)).
Proof.
  intros Hres Hi Hj. rewrite mask_exact_window. split; intros (s & Hin & H1 & H2); exists s; split; try assumption.
  - destruct H1 as [Ha _]. rewrite accepted_iff, <- hit_P_threshold. tauto.
  - rewrite hit_P_threshold. split; [|exact H2]. split; [now apply accepted_iff|].
    apply in_window_iff. destruct (in_window s0 s1 s i j) eqn:Hw; [reflexivity|exfalso].
    rewrite Forall_forall in Hres. destruct (Hres s Hin) as [[Hx Hy] Hthr].
    pose proof (window_bound s0 s1 s i j Hx Hy Hi Hj Hw). lra.
Qed.

Section TableProofs.
  Variable V : Type.
  Notation table := (table V).
  Notation col := (col V).
  Notation has := (has V).

  Lemma mem_iff c l : mem c l = true <-> In c l.
  Proof.
    unfold mem. rewrite existsb_exists. split.
    - intros (x & Hin & E). apply String.eqb_eq in E. now subst.
    - intros H. exists c. split; [exact H|apply String.eqb_refl].
  Qed.
  Lemma has_col (t : table) c : has t c = true <-> exists v, col t c = Some v.
  Proof.
    unfold has, col. induction t as [|[n v] t IH]; cbn [existsb find fst].
    - split; [discriminate|intros [v H]; discriminate].
    - destruct (String.eqb n c); cbn [orb option_map snd]; [split; [eauto|reflexivity]|exact IH].
  Qed.
  Lemma col_cons n v (t : table) c : col ((n, v) :: t) c = if String.eqb n c then Some v else col t c.
  Proof. unfold col. cbn [find fst]. destruct (String.eqb n c); reflexivity. Qed.
  Lemma col_app (t1 t2 : table) c : col (t1 ++ t2) c = match col t1 c with Some v => Some v | None => col t2 c end.
  Proof.
    induction t1 as [|[n v] t1 IH]; [reflexivity|]. cbn [app]. rewrite !col_cons. destruct (String.eqb n c); [reflexivity|exact IH].
  Qed.
  Lemma col_filter (P : string -> bool) (t : table) c :
    col (filter (fun e => P (fst e)) t) c = if P c then col t c else None.
  Proof.
    induction t as [|[n v] t IH]; cbn [filter fst]; [destruct (P c); reflexivity|].
    rewrite (col_cons n v t). destruct (String.eqb_spec n c) as [->|Hne].
    - destruct (P c); [rewrite col_cons, String.eqb_refl; reflexivity | exact IH].
    - destruct (P n); [rewrite col_cons, (proj2 (String.eqb_neq n c) Hne)|]; exact IH.
  Qed.
  Lemma col_none_notin (t : table) c : ~ In c (map fst t) -> col t c = None.
  Proof.
    induction t as [|[n v] t IH]; [reflexivity|]. cbn [map fst In]. intros H. rewrite col_cons.
    destruct (String.eqb n c) eqn:E; [apply String.eqb_eq in E; tauto|apply IH; tauto].
  Qed.

  Lemma pick_some (t : table) olds : Forall (fun c => has t c = true) olds ->
    exists vs, pick V t olds = Some vs /\ Forall2 (fun c v => col t c = Some v) olds vs.
  Proof.
    induction 1 as [|c olds Hc _ (vs & E & F)]; cbn [pick]; [exists []; split; [reflexivity|constructor]|].
    apply has_col in Hc. destruct Hc as [v Hv]. rewrite Hv, E. exists (v :: vs). split; [reflexivity|constructor; assumption].
  Qed.
  Lemma col_none (t : table) c : has t c = false -> col t c = None.
  Proof.
    intros H. destruct (col t c) as [v|] eqn:E; [|reflexivity].
    rewrite (proj2 (has_col t c) (ex_intro _ v E)) in H. discriminate H.
  Qed.
  Lemma pick_none (t : table) olds c : In c olds -> has t c = false -> pick V t olds = None.
  Proof.
    intros Hin Hc. induction olds as [|o olds IH]; [destruct Hin|]. destruct Hin as [->|Hin]; cbn [pick].
    - rewrite (col_none t c Hc). reflexivity.
    - rewrite (IH Hin). destruct (col t o); reflexivity.
  Qed.

  Lemma col_added (t : table) olds : forall news vs o f,
    Forall2 (fun c v => col t c = Some v) olds vs -> NoDup news -> List.length olds = List.length news ->
    In (o, f) (combine olds news) -> col (combine news vs) f = col t o.
  Proof.
    induction olds as [|o1 olds IH]; intros news vs o f F N L Hin; [destruct Hin|].
    destruct news as [|f1 news]; [discriminate|]. inversion F as [|? v1 ? vs' Hv F']; subst. inversion N as [|? ? Hnot N']; subst.
    cbn [combine] in *. rewrite col_cons. destruct Hin as [E|Hin].
    - injection E as <- <-. rewrite String.eqb_refl. symmetry. exact Hv.
    - assert (f1 <> f) by (intros ->; apply Hnot; eapply in_combine_r; exact Hin).
      destruct (String.eqb f1 f) eqn:E; [apply String.eqb_eq in E; contradiction|].
      apply IH; try assumption. cbn [List.length] in L. now injection L.
  Qed.

  Lemma load_cols_spec (t : table) olds news : NoDup news -> List.length olds = List.length news ->
    Forall (fun c => has t c = true) olds ->
    exists t', load_cols V olds news t = Some t'
      /\ (forall o f, In (o, f) (combine olds news) -> col t' f = col t o)
      /\ (forall c, ~ In c (olds ++ news) -> col t' c = col t c)
      /\ (NoDup (map fst t) -> NoDup (map fst t')).
  Proof.
    intros N L H. destruct (pick_some t olds H) as (vs & E & F). unfold load_cols. rewrite E.
    pose proof (Forall2_length _ _ _ F) as Lv.
    set (P := fun c => negb (mem c (olds ++ news))).
    assert (HP : forall c, P c = true <-> ~ In c (olds ++ news)).
    { intros c. unfold P. rewrite negb_true_iff, <- not_true_iff_false, mem_iff. reflexivity. }
    change (filter (fun e => negb (mem (fst e) (olds ++ news))) t) with (filter (fun e => P (fst e)) t).
    eexists. split; [reflexivity|]. split; [|split].
    - intros o f Hin. rewrite col_app, col_filter.
      replace (P f) with false by (symmetry; apply not_true_is_false; rewrite HP, in_app_iff; apply in_combine_r in Hin; tauto).
      apply (col_added t olds); assumption.
    - intros c Hc. rewrite col_app, col_filter, (proj2 (HP c) Hc). destruct (col t c); [reflexivity|].
      apply col_none_notin. rewrite map_fst_combine by congruence. intros Hn. apply Hc, in_or_app. now right.
    - intros Nt. rewrite map_app, map_fst_combine, <- filter_map_comm by congruence.
      apply NoDup_app_intro; [apply NoDup_filter, Nt | exact N |].
      intros c Hin Hnews. apply filter_In in Hin. apply (proj1 (HP c) (proj2 Hin)), in_or_app. now right.
  Qed.

  (* load_sources: every requested column becomes its catalogue field, whatever other columns the
     table has (columns already named like a catalogue field, swapped names ...) *)
  Lemma load_full (t : table) colmap : (forall p, In p rename_from -> has t (colmap p) = true) ->
    exists t', load_table V colmap t = Some t'
      /\ (forall p f, In (p, f) (combine rename_from rename_to) -> col t' f = col t (colmap p))
      /\ (forall c, ~ In c (map colmap rename_from ++ rename_to) -> col t' c = col t c)
      /\ (NoDup (map fst t) -> NoDup (map fst t')).
  Proof.
    intros H. unfold load_table.
    destruct (load_cols_spec t (map colmap rename_from) rename_to leaf_rename_nodup) as (t' & E & A & B & C).
    - rewrite List.map_length. exact leaf_rename_len.
    - apply Forall_forall. intros c Hc. apply in_map_iff in Hc. destruct Hc as (p & <- & Hp). now apply H.
    - exists t'. split; [exact E|]. split; [|split; assumption].
      intros p f Hin. apply A. now apply in_combine_map.
  Qed.
  (* a missing requested column gives None (load_sources returns None), not a silently wrong catalogue *)
  Lemma load_missing (t : table) colmap p : In p rename_from -> has t (colmap p) = false -> load_table V colmap t = None.
  Proof.
    intros Hp Hc. unfold load_table, load_cols. rewrite (pick_none t (map colmap rename_from) (colmap p)); [reflexivity| |exact Hc].
    apply in_map. exact Hp.
  Qed.
End TableProofs.
