(* C20 - the row bands of fits_tools.load_image_band (Model/Bands.v): band i of n holds rows
   [i N / n, (i + 1) N / n), so consecutive bands share their boundary (row_max_min_next); with the monotonicity
   of row_min this gives one band per row and, by induction on the number of bands, that the bands concatenate
   to the image.  Then the header shift and the closed form of load_band. *)
From Coq Require Import ZArith Bool List Lia ZifyBool.
From Aegean Require Import Lib.Lists Gen.Bands Model.Bands.
Import ListNotations.
Open Scope Z_scope.

Lemma rejected_iff b0 b1 : band_rejected b0 b1 = false <-> 0 <= b0 < b1.
Proof. unfold band_rejected. lia. Qed.

Lemma row_min_0 N n : 0 < n -> row_min N 0 n = 0.
Proof. intros; unfold row_min. rewrite Z.mul_0_r. apply Z.div_0_l; lia. Qed.

Lemma row_max_last N n : 0 < n -> row_max N (n - 1) n = N.
Proof. intros; unfold row_max. replace (n - 1 + 1) with n by lia. apply Z.div_mul; lia. Qed.

Lemma row_max_min_next N i n : row_max N i n = row_min N (i + 1) n.
Proof. reflexivity. Qed.

Lemma row_min_le_max N i n : 0 <= N -> 0 < n -> row_min N i n <= row_max N i n.
Proof. intros; unfold row_min, row_max. apply Z.div_le_mono; nia. Qed.

Lemma row_min_mono N i j n : 0 <= N -> 0 < n -> i <= j -> row_min N i n <= row_min N j n.
Proof. intros; unfold row_min. apply Z.div_le_mono; nia. Qed.

Lemma row_min_nonneg N i n : 0 <= N -> 0 < n -> 0 <= i -> 0 <= row_min N i n.
Proof. intros; unfold row_min. apply Z.div_pos; nia. Qed.

Lemma row_min_n N n : 0 < n -> row_min N n n = N.
Proof. intros; unfold row_min. apply Z.div_mul; lia. Qed.

Lemma band_of_row_exists N n r : 0 < n -> 0 <= r < N ->
  exists i, 0 <= i < n /\ row_min N i n <= r < row_max N i n.
Proof.
  (* the last band that starts at or before r: i * N / n <= r iff i * N < (r + 1) * n *)
  intros Hn Hr.
  pose proof (Z.mul_div_le ((r + 1) * n - 1) N ltac:(lia)) as Lo.
  pose proof (Z.mul_succ_div_gt ((r + 1) * n - 1) N ltac:(lia)) as Hi.
  exists (((r + 1) * n - 1) / N). unfold row_min, row_max. repeat split.
  - apply Z.div_pos; nia.
  - apply Z.div_lt_upper_bound; nia.
  - apply Z.lt_succ_r, Z.div_lt_upper_bound; lia.
  - apply Z.le_succ_l, Z.div_le_lower_bound; lia.
Qed.

Lemma band_of_row_unique N n r i j : 0 <= N -> 0 < n ->
  row_min N i n <= r < row_max N i n -> row_min N j n <= r < row_max N j n -> i = j.
Proof.
  intros HN Hn Hi Hj. rewrite row_max_min_next in Hi, Hj.
  destruct (Z.lt_trichotomy i j) as [H|[H|H]]; [|exact H|].
  - pose proof (row_min_mono N (i + 1) j n HN Hn ltac:(lia)). lia.
  - pose proof (row_min_mono N (j + 1) i n HN Hn ltac:(lia)). lia.
Qed.

Lemma bands_prefix {A} (img : list (list A)) (n : Z) (k : nat) :
  0 < n ->
  concat (map (fun i => band_rows img (Z.of_nat i) n) (seq 0 k)) =
  firstn (Z.to_nat (row_min (Z.of_nat (length img)) (Z.of_nat k) n)) img.
Proof.
  intros Hn. set (N := Z.of_nat (length img)).
  induction k as [|k IH].
  - simpl. rewrite row_min_0 by lia. reflexivity.
  - rewrite seq_S, map_app, concat_app. cbn [map concat Nat.add]. rewrite app_nil_r.
    rewrite IH. unfold band_rows. fold N.
    rewrite row_max_min_next. replace (Z.of_nat k + 1) with (Z.of_nat (S k)) by lia.
    set (a := row_min N (Z.of_nat k) n). set (b := row_min N (Z.of_nat (S k)) n).
    assert (0 <= a) by (apply row_min_nonneg; lia).
    assert (a <= b) by (apply row_min_mono; lia).
    clearbody a b.
    rewrite firstn_skipn_app. f_equal. lia.
Qed.

Lemma bands_concat {A} (img : list (list A)) (n : Z) : 0 < n ->
  concat (map (fun i => band_rows img (Z.of_nat i) n) (seq 0 (Z.to_nat n))) = img.
Proof.
  intros Hn. rewrite bands_prefix, Z2Nat.id, row_min_n by lia.
  rewrite Nat2Z.id. apply firstn_all.
Qed.

Lemma band_rows_length {A} (img : list (list A)) i n : 0 < n -> 0 <= i < n ->
  let N := Z.of_nat (length img) in
  Z.of_nat (length (band_rows img i n)) = row_max N i n - row_min N i n.
Proof.
  intros Hn Hi N. unfold band_rows. fold N.
  assert (0 <= row_min N i n) by (apply row_min_nonneg; lia).
  assert (row_min N i n <= row_max N i n) by (apply row_min_le_max; lia).
  assert (row_max N i n <= N).
  { rewrite row_max_min_next. rewrite <- (row_min_n N n) at 2 by lia. apply row_min_mono; lia. }
  rewrite firstn_length, skipn_length. lia.
Qed.

(* the adjusted header describes the same linear coordinate for the same physical row *)
Lemma astrometry_kept crpix2 lo hi y :
  fits_offset (new_crpix2 crpix2 lo hi) y = fits_offset crpix2 (y + lo).
Proof. unfold fits_offset, new_crpix2. lia. Qed.

Lemma naxis2_is_rows lo hi : new_naxis2 lo hi = hi - lo.
Proof. reflexivity. Qed.

Lemma load_band_spec N crpix2 b0 b1 :
  load_band N crpix2 b0 b1 =
  if (0 <=? b0) && (b0 <? b1) then
    Some {| br_lo := row_min N b0 b1; br_hi := row_max N b0 b1;
            br_naxis2 := row_max N b0 b1 - row_min N b0 b1;
            br_crpix2 := crpix2 - row_min N b0 b1 |}
  else None.
Proof.
  unfold load_band. destruct (band_rejected b0 b1) eqn:E.
  - destruct ((0 <=? b0) && (b0 <? b1)) eqn:F; [|reflexivity].
    assert (band_rejected b0 b1 = false) by (apply rejected_iff; lia). congruence.
  - apply rejected_iff in E. replace ((0 <=? b0) && (b0 <? b1)) with true by lia. reflexivity.
Qed.
