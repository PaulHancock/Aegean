(* C06 - proofs about Model/BaneFilter.v.
   Tabulation is the identity; the generated leaves are read through one equation per stripe quantity and through
   the membership rule of a box (then the leaves are opaque); the cell of a pixel on one axis and the normal form of
   a pass (pass_eq).  From the normal form: a pass commutes with a pixel-wise transformation of the data (shift,
   scale), preserves a range (bounds, constant image), and is finite where each of the four corner boxes holds a
   finite value (mask rules).  Then the theorems for arbitrary box statistics over R satisfying explicit hypotheses,
   and the sigma clipping of the real code satisfies these hypotheses. *)
From Coq Require Import ZArith QArith Qreals Reals Lra Lia List Bool.
From Aegean Require Import Lib.Lists Gen.BaneSync Gen.BaneFilter Lib.Stats Model.BaneFilter Proofs.StatsProofs Proofs.StatsQR.
Import ListNotations.
Open Scope Z_scope.

Lemma memo1_eq {A} lo n (f : Z -> A) i : memo1 lo n f i = f i.
Proof.
  unfold memo1. destruct ((lo <=? i) && (i <? lo + n)) eqn:E; [|reflexivity].
  apply andb_true_iff in E as [E1%Z.leb_le E2%Z.ltb_lt].
  rewrite (map_nth_error _ (Z.to_nat (i - lo)) (seq 0 (Z.to_nat n)) (d := Z.to_nat (i - lo))).
  - f_equal. lia.
  - rewrite (nth_error_nth' _ 0%nat), seq_nth by (rewrite ?seq_length; lia). reflexivity.
Qed.

Lemma memo2_eq {A} rlo rn clo cn (f : Z -> Z -> A) r c : memo2 rlo rn clo cn f r c = f r c.
Proof. unfold memo2. rewrite !memo1_eq. reflexivity. Qed.

Lemma in_zrange a b x : In x (zrange a b) <-> a <= x < b.
Proof.
  unfold zrange. rewrite in_map_iff. split.
  - intros [k [<- Hk]]. apply in_seq in Hk. lia.
  - intros H. exists (Z.to_nat (x - a)). split; [rewrite Z2Nat.id by lia; lia|]. apply in_seq. lia.
Qed.

Lemma zrange_length a b : length (zrange a b) = Z.to_nat (b - a).
Proof. unfold zrange. rewrite map_length, seq_length. reflexivity. Qed.

(* the pixel grid has exactly the rows / columns that are written *)
Lemma pix_r_extent ymin ymax drm nrows ncols : pix_r_hi ymin ymax drm nrows ncols - pix_r_lo ymin ymax drm nrows ncols = ymax - ymin.
Proof. unfold pix_r_hi, pix_r_lo. lia. Qed.
Lemma pix_c_extent ymin ymax drm nrows ncols : pix_c_hi ymin ymax drm nrows ncols - pix_c_lo ymin ymax drm nrows ncols = ncols.
Proof. unfold pix_c_hi, pix_c_lo. lia. Qed.
Lemma mask_r_hi_spec ymin ymax drm drx dh : mask_r_hi ymin ymax drm drx dh = dh - (drx - ymax). Proof. reflexivity. Qed.
Lemma subtract_all_rows_spec : subtract_all_rows = true. Proof. reflexivity. Qed.
Lemma clip_levels_spec : clip_lo = clip_hi /\ 0 <= clip_lo. Proof. split; [reflexivity | unfold clip_lo; lia]. Qed.
Lemma clip_strict_spec : clip_lower_strict = clip_upper_strict. Proof. reflexivity. Qed.

Lemma st_rs_eq g k : st_rs g k = st_ymin g k - st_drm g k. Proof. reflexivity. Qed.
Lemma st_re_eq g k : st_re g k = st_ymax g k - st_drm g k. Proof. reflexivity. Qed.
Lemma st_rstep_eq g k : st_rstep g k = sr g. Proof. reflexivity. Qed.
Lemma st_cs_eq g k : st_cs g k = 0. Proof. reflexivity. Qed.
Lemma st_ce_eq g k : st_ce g k = nc g. Proof. reflexivity. Qed.
Lemma st_cstep_eq g k : st_cstep g k = sc g. Proof. reflexivity. Qed.
Lemma st_prow_eq g k y : st_prow g k y = y - st_drm g k. Proof. unfold st_prow, pix_r_lo. lia. Qed.
Lemma st_pcol_eq g k c : st_pcol g k c = c. Proof. reflexivity. Qed.
Lemma st_mrow_eq g k y : st_mrow g k y = y - st_drm g k. Proof. unfold st_mrow, mask_r_lo. lia. Qed.
Lemma st_drm_eq g k : st_drm g k = Z.max 0 (st_ymin g k - br g / 2). Proof. reflexivity. Qed.
Lemma st_drx_eq g k : st_drx g k = Z.min (nr g) (st_ymax g k + br g / 2). Proof. reflexivity. Qed.

(* the box of the node (r, c): the python slices [max 0 (r - b/2), min (len - 1) (r + b/2)) of the data, blanks dropped *)
Lemma in_boxvals K (data : pix K) dh ncols brow bcol r c v :
  In v (boxvals K data dh ncols brow bcol r c) <->
  exists rr cc, Z.max 0 (r - brow / 2) <= rr < Z.min (dh - 1) (r + brow / 2)
                /\ Z.max 0 (c - bcol / 2) <= cc < Z.min (ncols - 1) (c + bcol / 2) /\ data rr cc = Some v.
Proof.
  unfold boxvals. rewrite in_flat_map. split.
  - intros (rr & Hr%in_zrange & (cc & Hc%in_zrange & Hv)%in_flat_map). exists rr, cc.
    destruct (data rr cc) as [w|]; [|destruct Hv]. destruct Hv as [<-|[]]. auto.
  - intros (rr & cc & Hr & Hc & E). exists rr. split; [apply in_zrange; exact Hr|].
    apply in_flat_map. exists cc. split; [apply in_zrange; exact Hc|]. rewrite E. left. reflexivity.
Qed.

Local Opaque box_r_min box_r_max box_c_min box_c_max grid_r_start grid_r_stop grid_r_step grid_c_start grid_c_stop
  grid_c_step pix_r_lo pix_r_hi pix_c_lo pix_c_hi mask_r_lo mask_r_hi data_row_min data_row_max subtract_all_rows
  clip_lo clip_hi clip_lower_strict clip_upper_strict clip_reps.

Definition in_image (g : geom) (y c : Z) : Prop := (0 <= y < nr g)%Z /\ (0 <= c < nc g)%Z.
(* what the property asks of the configuration: grid >= 1, box >= 4, at least one row per stripe *)
Definition wf (g : geom) : Prop :=
  (0 < wy g /\ 0 < sr g /\ 0 < sc g /\ 4 <= br g /\ 4 <= bc g)%Z.

(* suball is the flag regenerated from BANE.py (Gen: subtract_all_rows), as in every geometry built by the_geom *)
Definition real_geom (g : geom) : Prop := suball g = subtract_all_rows.

Lemma real_suball g : real_geom g -> suball g = true.
Proof. unfold real_geom. intros ->. apply subtract_all_rows_spec. Qed.

Lemma the_geom_suball rows cols steprow stepcol boxrow boxcol width mask :
  suball (the_geom rows cols steprow stepcol boxrow boxcol width mask) = true.
Proof. unfold the_geom. cbn [suball]. apply subtract_all_rows_spec. Qed.

Lemma stripe_own g y : 0 < wy g -> 0 <= y < nr g ->
  0 <= st_ymin g (y / wy g) <= y /\ y < st_ymax g (y / wy g) <= nr g.
Proof.
  intros Hw Hy. unfold st_ymin, st_ymax.
  pose proof (Z.div_mod y (wy g) ltac:(lia)). pose proof (Z.mod_pos_bound y (wy g) Hw).
  assert (0 <= y / wy g) by (apply Z.div_pos; lia). nia.
Qed.

Lemma stripe_unique g y q : 0 < wy g -> st_ymin g (y / wy g) <= q < st_ymax g (y / wy g) -> q / wy g = y / wy g.
Proof.
  unfold st_ymin, st_ymax. intros Hw Hq. symmetry.
  apply Z.div_unique with (r := q - wy g * (y / wy g)); [left; lia | ring].
Qed.

Lemma stripe_halo g y : 0 < wy g -> 0 <= br g -> 0 <= y < nr g ->
  let k := y / wy g in
  0 <= st_drm g k <= st_ymin g k /\ st_ymax g k <= st_drx g k <= nr g /\ (2 <= nr g -> 4 <= br g -> 2 <= st_dh g k).
Proof.
  intros Hw Hb Hy k. pose proof (stripe_own g y Hw Hy). fold k in H.
  unfold st_dh. rewrite st_drm_eq, st_drx_eq.
  assert (0 <= br g / 2) by (apply Z.div_pos; lia).
  repeat split; try lia. intros Hn H4. assert (2 <= br g / 2) by (apply Z.div_le_lower_bound; lia). lia.
Qed.

Lemma held_in_image g y rr cc : wf g -> 0 <= y < nr g -> 0 <= rr < st_dh g (y / wy g) -> 0 <= cc < nc g ->
  in_image g (st_drm g (y / wy g) + rr) cc.
Proof.
  intros (Hw & _ & _ & Hbr & _) Hy Hrr Hcc. destruct (stripe_halo g y Hw ltac:(lia) Hy) as (D1 & D2 & _).
  unfold in_image, st_dh in *. lia.
Qed.

(* the cell of x on an axis with nodes range(a, e, s) + [e]: its two nodes *)
Definition clo (a e s x : Z) : Z := gnode a e s ((x - a) / s).
Definition chi (a e s x : Z) : Z := gnode a e s ((x - a) / s + 1).

Lemma gnode_shift a e s i d : gnode (a - d) (e - d) s i = gnode a e s i - d.
Proof. unfold gnode. lia. Qed.

Lemma cell_bracket a e s x : 0 < s -> a <= x < e ->
  a <= clo a e s x <= x /\ x < chi a e s x <= e /\ x - s < clo a e s x /\ chi a e s x <= x + s.
Proof.
  intros Hs Hx. unfold clo, chi, gnode.
  pose proof (Z.div_mod (x - a) s ltac:(lia)) as Hd. pose proof (Z.mod_pos_bound (x - a) s Hs) as Hm.
  set (i := (x - a) / s) in *. assert (0 <= i) by (apply Z.div_pos; lia). nia.
Qed.

Lemma same_cell a e s x q : 0 < s -> a <= x < e -> clo a e s x <= q < chi a e s x ->
  clo a e s q = clo a e s x /\ chi a e s q = chi a e s x.
Proof.
  intros Hs Hx Hq. pose proof (cell_bracket a e s x Hs Hx) as B. unfold clo, chi, gnode in *.
  replace ((q - a) / s) with ((x - a) / s); [split; reflexivity|].
  apply Z.div_unique with (r := q - a - s * ((x - a) / s)); [left | ring]. lia.
Qed.

Lemma cell_near a e s x q : 0 < s -> a <= x < e -> a <= q ->
  clo a e s x <= q < chi a e s x \/ q = x - 1 ->
  x - s <= clo a e s q /\ chi a e s q <= x + s /\ - s <= q - x <= s.
Proof.
  intros Hs Hx Ha [H|H].
  - destruct (same_cell a e s x q Hs Hx H) as [-> ->]. pose proof (cell_bracket a e s x Hs Hx). lia.
  - pose proof (cell_bracket a e s q Hs ltac:(lia)). lia.
Qed.

(* the data spans [m, x), the grid spans [a, e) inside it; each of the two nodes N around y has, in its box (in data
   coordinates), a pixel of the cell of y or the pixel y - 1 *)
Lemma axis_witness m x a e s b y N : m <= a -> a <= y < e -> e <= x -> 2 <= x - m -> 0 < s -> 4 <= b ->
  N = clo a e s y \/ N = chi a e s y ->
  exists q, Z.max 0 (N - m - b / 2) <= q - m < Z.min (x - m - 1) (N - m + b / 2) /\ m <= q < x
            /\ clo a e s y - b / 2 <= q < chi a e s y + b / 2
            /\ (clo a e s y <= q < chi a e s y \/ q = y - 1).
Proof.
  intros Hm Hy He Hx Hs Hb HN. pose proof (cell_bracket a e s y Hs Hy) as B.
  assert (2 <= b / 2) by (apply Z.div_le_lower_bound; lia).
  set (G0 := clo a e s y) in *. set (G1 := chi a e s y) in *.
  destruct HN as [-> | ->].
  - destruct (Z_lt_dec G0 (x - 1)); [exists G0 | exists (G0 - 1)]; lia.
  - destruct (Z_lt_dec G1 x); [exists (G1 - 1) | exists (x - 2)]; lia.
Qed.

(* corners (image coordinates) of the grid cell of row y (in the stripe that owns y) and of column c *)
Notation glo_r g y := (clo (st_ymin g (y / wy g)) (st_ymax g (y / wy g)) (sr g) y).
Notation ghi_r g y := (chi (st_ymin g (y / wy g)) (st_ymax g (y / wy g)) (sr g) y).
Notation glo_c g c := (clo 0 (nc g) (sc g) c).
Notation ghi_c g c := (chi 0 (nc g) (sc g) c).

Lemma cell_r_facts g y : 0 < wy g -> 0 < sr g -> 0 <= y < nr g ->
  let k := y / wy g in
  0 <= st_ymin g k <= glo_r g y /\ glo_r g y <= y < ghi_r g y /\ ghi_r g y <= st_ymax g k <= nr g
  /\ y - sr g < glo_r g y /\ ghi_r g y <= y + sr g.
Proof.
  intros Hw Hs Hy k. destruct (stripe_own g y Hw Hy) as [H1 H2]. fold k in H1, H2 |- *.
  pose proof (cell_bracket (st_ymin g k) (st_ymax g k) (sr g) y Hs ltac:(lia)). lia.
Qed.

Lemma cell_near_r g y q : 0 < wy g -> 0 < sr g -> 0 <= y < nr g -> 0 <= q < nr g ->
  glo_r g y <= q < ghi_r g y \/ q = y - 1 ->
  y - sr g <= glo_r g q /\ ghi_r g q <= y + sr g /\ - sr g <= q - y <= sr g.
Proof.
  intros Hw Hs Hy Hq [H|H].
  - destruct (cell_r_facts g y Hw Hs Hy) as (F1 & F2 & F3 & _).
    rewrite (stripe_unique g y q Hw) by lia. apply cell_near; auto; lia.
  - destruct (cell_r_facts g q Hw Hs Hq) as (_ & _ & _ & F4 & F5). lia.
Qed.

(* the normal form of a pass: bilinear interpolation between the statistics of the four boxes around the
   nodes of the cell of (y, c), in the coordinates of the stripe that owns y *)
Lemma pass_eq K est g datak y c :
  pass K est g datak y c =
  let k := y / wy g in let d := st_drm g k in
  let ns N M := node_stat K est (boxvals K (datak k) (st_dh g k) (nc g) (br g) (bc g) (N - d) M) in
  bilin K (ns (glo_r g y) (glo_c g c)) (ns (glo_r g y) (ghi_c g c))
          (ns (ghi_r g y) (glo_c g c)) (ns (ghi_r g y) (ghi_c g c))
    (frac K (glo_r g y - d) (ghi_r g y - d) (y - d)) (frac K (glo_c g c) (ghi_c g c) c).
Proof.
  unfold pass. rewrite memo2_eq, memo1_eq. unfold stripe_map, interp_at, stripe_vals. rewrite !memo2_eq.
  rewrite st_prow_eq, st_pcol_eq, st_rs_eq, st_re_eq, st_rstep_eq, st_cs_eq, st_ce_eq, st_cstep_eq.
  replace (y - st_drm g (y / wy g) - (st_ymin g (y / wy g) - st_drm g (y / wy g)))
    with (y - st_ymin g (y / wy g)) by lia.
  rewrite !gnode_shift. reflexivity.
Qed.

Lemma bilin_some_inv K a b c d t u v : bilin K a b c d t u = Some v ->
  exists va vb vc vd, a = Some va /\ b = Some vb /\ c = Some vc /\ d = Some vd /\ v = lerp2 K va vb vc vd t u.
Proof. destruct a, b, c, d; try discriminate. intros [= <-]. eauto 10. Qed.

Lemma bilin_not_none K a b c d t u :
  a <> None -> b <> None -> c <> None -> d <> None -> bilin K a b c d t u <> None.
Proof. destruct a, b, c, d; try congruence. discriminate. Qed.

Lemma node_stat_some K est l v : node_stat K est l = Some v -> l <> [] /\ v = est l.
Proof. destruct l; [discriminate|]. intros [= <-]. split; [discriminate | reflexivity]. Qed.

Lemma node_stat_not_none K est l : l <> [] -> node_stat K est l <> None.
Proof. destruct l; [congruence | discriminate]. Qed.

Section PassMap.
  Variable K : carrier.
  Variables est est' : list (V K) -> V K.
  Variables phi phi' : V K -> V K.
  Hypothesis Hest : forall l, l <> [] -> est' (map phi l) = phi' (est l).
  Hypothesis Hlerp : forall a b c d t u,
    lerp2 K (phi' a) (phi' b) (phi' c) (phi' d) t u = phi' (lerp2 K a b c d t u).

  Lemma boxvals_map data data' dh ncols brow bcol r c :
    (forall rr cc, data' rr cc = omap K phi (data rr cc)) ->
    boxvals K data' dh ncols brow bcol r c = map phi (boxvals K data dh ncols brow bcol r c).
  Proof.
    intros H. unfold boxvals. apply flat_map_map_comm. intros rr _.
    apply flat_map_map_comm. intros cc _. rewrite H. destruct (data rr cc); reflexivity.
  Qed.

  Lemma node_stat_map l : node_stat K est' (map phi l) = omap K phi' (node_stat K est l).
  Proof.
    destruct l as [|a l]; [reflexivity|]. cbn [map node_stat omap]. f_equal.
    change (phi a :: map phi l) with (map phi (a :: l)). apply Hest. discriminate.
  Qed.

  Lemma bilin_map a b c d t u :
    bilin K (omap K phi' a) (omap K phi' b) (omap K phi' c) (omap K phi' d) t u
    = omap K phi' (bilin K a b c d t u).
  Proof. destruct a, b, c, d; cbn [omap bilin]; rewrite ?Hlerp; reflexivity. Qed.

  Lemma pass_map g datak datak' y c :
    (forall k rr cc, datak' k rr cc = omap K phi (datak k rr cc)) ->
    pass K est' g datak' y c = omap K phi' (pass K est g datak y c).
  Proof.
    intros H. rewrite !pass_eq. cbv beta zeta.
    rewrite !(boxvals_map (datak (y / wy g)) (datak' (y / wy g))) by apply H.
    rewrite !node_stat_map. apply bilin_map.
  Qed.
End PassMap.

Lemma omap_id K o : omap K (fun x => x) o = o.
Proof. destruct o; reflexivity. Qed.

Lemma pass_ext K est g datak datak' y c :
  (forall k rr cc, datak' k rr cc = datak k rr cc) -> pass K est g datak' y c = pass K est g datak y c.
Proof.
  intros H. transitivity (omap K (fun x => x) (pass K est g datak y c)); [|apply omap_id].
  apply (pass_map K est est (fun x => x) (fun x => x)).
  - intros l _. rewrite map_id. reflexivity.
  - reflexivity.
  - intros. rewrite omap_id. apply H.
Qed.

Lemma pass_finite_nodes K est g datak y c :
  (forall N M, N = glo_r g y \/ N = ghi_r g y -> M = glo_c g c \/ M = ghi_c g c ->
     boxvals K (datak (y / wy g)) (st_dh g (y / wy g)) (nc g) (br g) (bc g) (N - st_drm g (y / wy g)) M <> []) ->
  pass K est g datak y c <> None.
Proof. intros H. rewrite pass_eq. cbv beta zeta. apply bilin_not_none; apply node_stat_not_none, H; auto. Qed.

(* each of the four boxes holds a pixel q of the cell of (y, c) - or, along an axis whose last cell is one pixel wide,
   the pixel before - so only such pixels, all within half a box of the cell, need to be finite *)
Lemma pass_finite_cell K est g datak y c : wf g -> 2 <= nr g -> 2 <= nc g -> in_image g y c ->
  (forall qr qc, in_image g qr qc ->
     glo_r g y - br g / 2 <= qr < ghi_r g y + br g / 2 -> glo_c g c - bc g / 2 <= qc < ghi_c g c + bc g / 2 ->
     glo_r g y <= qr < ghi_r g y \/ qr = y - 1 -> glo_c g c <= qc < ghi_c g c \/ qc = c - 1 ->
     datak (y / wy g) (qr - st_drm g (y / wy g)) qc <> None) ->
  pass K est g datak y c <> None.
Proof.
  intros (Hw & Hsr & Hsc & Hbr & Hbc) Hnr Hnc [Hy Hc] HD. apply pass_finite_nodes. intros N M HN HM.
  destruct (stripe_own g y Hw Hy) as [O1 O2].
  destruct (stripe_halo g y Hw ltac:(lia) Hy) as (D1 & D2 & D3). specialize (D3 Hnr Hbr).
  set (k := y / wy g) in *.
  destruct (axis_witness (st_drm g k) (st_drx g k) (st_ymin g k) (st_ymax g k) (sr g) (br g) y N
              ltac:(lia) ltac:(lia) ltac:(lia) D3 Hsr Hbr HN) as (qr & R1 & R2 & R3 & R4).
  destruct (axis_witness 0 (nc g) 0 (nc g) (sc g) (bc g) c M
              ltac:(lia) Hc ltac:(lia) ltac:(lia) Hsc Hbc HM) as (qc & C1 & C2 & C3 & C4).
  rewrite !Z.sub_0_r in C1.
  assert (Hq : in_image g qr qc) by (split; [clear - R2 D1 D2; lia | exact C2]).
  destruct (datak k (qr - st_drm g k) qc) as [v|] eqn:E; [|destruct (HD qr qc Hq R3 C3 R4 C4 E)].
  intros E0. apply (in_nil (a := v)). rewrite <- E0. apply in_boxvals. exists (qr - st_drm g k), qc. auto.
Qed.

Lemma sub_data_eq K est_b g img s r c :
  sub_data K est_b g img s r c =
  if suball g || own_row g s r
  then osub K (img (st_drm g s + r) c) (bkg_raw K est_b g img (st_drm g s + r) c)
  else img (st_drm g s + r) c.
Proof. unfold sub_data. rewrite memo1_eq. unfold data2. rewrite memo2_eq. reflexivity. Qed.

Lemma masked_eq K est_b g img y c :
  masked K est_b g img y c =
  is_none (if suball g || own_row g (y / wy g) (y - st_drm g (y / wy g))
           then osub K (img y c) (bkg_raw K est_b g img y c) else img y c).
Proof.
  unfold masked. rewrite sub_data_eq, st_mrow_eq.
  replace (st_drm g (y / wy g) + (y - st_drm g (y / wy g))) with y by lia. reflexivity.
Qed.

Lemma osub_not_none K a b : a <> None -> b <> None -> osub K a b <> None.
Proof. destruct a, b; try congruence. discriminate. Qed.

Open Scope R_scope.

Lemma lerp_shift a b c d t u k : lerp2 RC (a + k) (b + k) (c + k) (d + k) t u = lerp2 RC a b c d t u + k.
Proof. unfold lerp2. cbn. ring. Qed.
Lemma lerp_scale a b c d t u k : lerp2 RC (k * a) (k * b) (k * c) (k * d) t u = k * lerp2 RC a b c d t u.
Proof. unfold lerp2. cbn. ring. Qed.

Lemma convex2 lo hi x y t : 0 <= t <= 1 -> lo <= x <= hi -> lo <= y <= hi -> lo <= x * (1 - t) + y * t <= hi.
Proof. intros Ht Hx Hy. split; nra. Qed.

Lemma lerp_convex lo hi a b c d t u : 0 <= t <= 1 -> 0 <= u <= 1 ->
  lo <= a <= hi -> lo <= b <= hi -> lo <= c <= hi -> lo <= d <= hi -> lo <= lerp2 RC a b c d t u <= hi.
Proof.
  intros Ht Hu Ha Hb Hc Hd.
  replace (lerp2 RC a b c d t u) with ((a * (1 - u) + b * u) * (1 - t) + (c * (1 - u) + d * u) * t)
    by (unfold lerp2; cbn; ring).
  apply convex2; [exact Ht | apply convex2; assumption | apply convex2; assumption].
Qed.

Lemma frac_unit lo hi x : (lo <= x <= hi)%Z -> (lo < hi)%Z -> 0 <= frac RC lo hi x <= 1.
Proof.
  intros Hx Hl. unfold frac. cbn.
  assert (Hd : 0 < IZR (hi - lo)) by (apply IZR_lt; lia).
  assert (Ha : 0 <= IZR (x - lo) <= IZR (hi - lo)) by (split; apply IZR_le; lia).
  apply div_bounds; lra.
Qed.

Lemma pass_range est (P : R -> Prop) lo hi g datak y c v :
  (forall l, l <> [] -> Forall P l -> lo <= est l <= hi) -> wf g -> in_image g y c ->
  (forall rr cc w, (0 <= rr < st_dh g (y / wy g)%Z)%Z -> (0 <= cc < nc g)%Z -> datak (y / wy g)%Z rr cc = Some w -> P w) ->
  pass RC est g datak y c = Some v -> lo <= v <= hi.
Proof.
  intros Hest (Hw & Hsr & Hsc & _) [Hy Hc] HP H. rewrite pass_eq in H. cbv beta zeta in H.
  apply bilin_some_inv in H as (va & vb & vc & vd & Ea & Eb & Ec & Ed & ->).
  assert (HN : forall N M w, node_stat RC est (boxvals RC (datak (y / wy g)%Z) (st_dh g (y / wy g)%Z) (nc g) (br g) (bc g) N M)
                             = Some w -> lo <= w <= hi).
  { intros N M w [Hne ->]%node_stat_some. apply Hest; [exact Hne|]. apply Forall_forall.
    intros x (rr & cc & Hr & Hcc & E)%(in_boxvals RC). apply (HP rr cc); [lia | lia | exact E]. }
  destruct (cell_r_facts g y Hw Hsr Hy) as (_ & Br & _). pose proof (cell_bracket 0%Z (nc g) (sc g) c Hsc Hc) as Bc.
  apply lerp_convex; [apply frac_unit; lia | apply frac_unit; lia | eapply HN; eassumption ..].
Qed.

Definition shift_img (img : pix RC) (k : R) : pix RC := fun y c => omap RC (fun x => x + k) (img y c).
Definition scale_img (img : pix RC) (k : R) : pix RC := fun y c => omap RC (fun x => k * x) (img y c).

Section Abstract.
  Variables est_b est_r : list R -> R.
  Hypothesis Hb_shift : forall l k, l <> [] -> est_b (map (fun x => x + k) l) = est_b l + k.
  Hypothesis Hb_scale : forall l k, l <> [] -> est_b (map (fun x => k * x) l) = k * est_b l.
  Hypothesis Hb_range : forall l lo hi, l <> [] -> Forall (fun x => lo <= x <= hi) l -> lo <= est_b l <= hi.
  Hypothesis Hr_scale : forall l k, l <> [] -> est_r (map (fun x => k * x) l) = Rabs k * est_r l.
  Hypothesis Hr_range : forall l M, l <> [] -> Forall (fun x => - M <= x <= M) l -> 0 <= est_r l <= M.

  Notation bkg_raw := (bkg_raw RC est_b).
  Notation rms_raw := (rms_raw RC est_b est_r).
  Notation sub_data := (sub_data RC est_b).
  Notation out_bkg := (out_bkg RC est_b).
  Notation out_rms := (out_rms RC est_b est_r).
  Notation masked := (masked RC est_b).

  Lemma bkg_raw_shift g img k y c : bkg_raw g (shift_img img k) y c = omap RC (fun x => x + k) (bkg_raw g img y c).
  Proof.
    apply (pass_map RC est_b est_b (fun x => x + k) (fun x => x + k)).
    - intros l. apply Hb_shift.
    - intros. apply lerp_shift.
    - reflexivity.
  Qed.

  Lemma sub_data_shift g img k s r c : suball g = true -> sub_data g (shift_img img k) s r c = sub_data g img s r c.
  Proof.
    intros Hs. rewrite !sub_data_eq, Hs. cbn [orb]. rewrite bkg_raw_shift. unfold shift_img.
    destruct (img (st_drm g s + r)%Z c), (bkg_raw g img (st_drm g s + r)%Z c); cbn [omap osub]; try reflexivity.
    f_equal. cbn. ring.
  Qed.

  Lemma shift_abstract g img k y c : suball g = true ->
    out_bkg g (shift_img img k) y c = omap RC (fun x => x + k) (out_bkg g img y c)
    /\ out_rms g (shift_img img k) y c = out_rms g img y c.
  Proof.
    intros Hs. unfold BaneFilter.out_bkg, BaneFilter.out_rms, BaneFilter.masked.
    rewrite sub_data_shift by exact Hs. split.
    - destruct (dm g && _); [reflexivity | apply bkg_raw_shift].
    - destruct (dm g && _); [reflexivity|]. apply pass_ext. intros. apply sub_data_shift. exact Hs.
  Qed.

  Lemma bkg_raw_scale g img k y c : bkg_raw g (scale_img img k) y c = omap RC (fun x => k * x) (bkg_raw g img y c).
  Proof.
    apply (pass_map RC est_b est_b (fun x => k * x) (fun x => k * x)).
    - intros l. apply Hb_scale.
    - intros. apply lerp_scale.
    - reflexivity.
  Qed.

  Lemma sub_data_scale g img k s r c : sub_data g (scale_img img k) s r c = omap RC (fun x => k * x) (sub_data g img s r c).
  Proof.
    rewrite !sub_data_eq, bkg_raw_scale. unfold scale_img.
    destruct (suball g || own_row g s r); [|reflexivity].
    destruct (img (st_drm g s + r)%Z c), (bkg_raw g img (st_drm g s + r)%Z c); cbn [omap osub]; try reflexivity.
    f_equal. cbn. ring.
  Qed.

  Lemma is_none_omap f (o : option R) : is_none (omap RC f o) = is_none o.
  Proof. destruct o; reflexivity. Qed.

  Lemma scale_abstract g img k y c :
    out_bkg g (scale_img img k) y c = omap RC (fun x => k * x) (out_bkg g img y c)
    /\ out_rms g (scale_img img k) y c = omap RC (fun x => Rabs k * x) (out_rms g img y c).
  Proof.
    unfold BaneFilter.out_bkg, BaneFilter.out_rms, BaneFilter.masked.
    rewrite sub_data_scale, is_none_omap. split.
    - destruct (dm g && _); [reflexivity | apply bkg_raw_scale].
    - destruct (dm g && _); [reflexivity|].
      apply (pass_map RC est_r est_r (fun x => k * x) (fun x => Rabs k * x)).
      + intros l. apply Hr_scale.
      + intros. apply lerp_scale.
      + intros. apply sub_data_scale.
  Qed.

  Lemma bkg_raw_bounds g img lo hi y c v : wf g -> in_image g y c ->
    (forall y' c' w, in_image g y' c' -> img y' c' = Some w -> lo <= w <= hi) ->
    bkg_raw g img y c = Some v -> lo <= v <= hi.
  Proof.
    intros Hwf Hin HI. apply (pass_range est_b (fun x => lo <= x <= hi)); try assumption.
    - intros l. apply Hb_range.
    - intros rr cc w Hrr Hcc E. apply (HI (st_drm g (y / wy g) + rr)%Z cc); [|exact E].
      apply held_in_image; try assumption. exact (proj1 Hin).
  Qed.

  Lemma bounds_abstract g img lo hi y c : wf g -> suball g = true -> in_image g y c ->
    (forall y' c' w, in_image g y' c' -> img y' c' = Some w -> lo <= w <= hi) ->
    (forall b, out_bkg g img y c = Some b -> lo <= b <= hi)
    /\ (forall s, out_rms g img y c = Some s -> 0 <= s <= hi - lo).
  Proof.
    intros Hwf Hs Hin HI. unfold BaneFilter.out_bkg, BaneFilter.out_rms. split.
    - intros b H. destruct (dm g && _); [discriminate|]. eapply bkg_raw_bounds; eassumption.
    - intros s H. destruct (dm g && _); [discriminate|].
      apply (pass_range est_r (fun x => - (hi - lo) <= x <= hi - lo)) with (5 := H); try assumption.
      + intros l. apply Hr_range.
      + (* data - background, each in [lo, hi] *)
        intros rr cc w Hrr Hcc E. rewrite sub_data_eq, Hs in E. cbn [orb] in E.
        pose proof (held_in_image g y rr cc Hwf (proj1 Hin) Hrr Hcc) as Hq.
        destruct (img (st_drm g (y / wy g) + rr)%Z cc) as [a|] eqn:Ea; [|discriminate].
        destruct (bkg_raw g img (st_drm g (y / wy g) + rr)%Z cc) as [b|] eqn:Eb; [|discriminate].
        injection E as <-. cbn. pose proof (HI _ _ _ Hq Ea). pose proof (bkg_raw_bounds g img lo hi _ _ _ Hwf Hq HI Eb). lra.
  Qed.

  Lemma mask_nan_abstract g img y c : dm g = true -> img y c = None ->
    out_bkg g img y c = None /\ out_rms g img y c = None.
  Proof.
    intros Hd Hi. unfold BaneFilter.out_bkg, BaneFilter.out_rms. rewrite masked_eq, Hi, Hd.
    destruct (suball g || _); cbn; split; reflexivity.
  Qed.

  Definition near (g : geom) (f : Z) (y c y' c' : Z) : Prop :=
    (- f * (br g / 2 + sr g) <= y' - y <= f * (br g / 2 + sr g) /\ - f * (bc g / 2 + sc g) <= c' - c <= f * (bc g / 2 + sc g))%Z.

  Lemma bkg_raw_finite_cell g img y c : wf g -> (2 <= nr g)%Z -> (2 <= nc g)%Z -> in_image g y c ->
    (forall y' c', in_image g y' c' -> (glo_r g y - br g / 2 <= y' < ghi_r g y + br g / 2)%Z ->
                   (glo_c g c - bc g / 2 <= c' < ghi_c g c + bc g / 2)%Z -> img y' c' <> None) ->
    bkg_raw g img y c <> None.
  Proof.
    intros Hwf Hnr Hnc Hin HI. apply pass_finite_cell; try assumption. intros qr qc Hq Sr Sc _ _.
    unfold data1. replace (st_drm g (y / wy g) + (qr - st_drm g (y / wy g)))%Z with qr by lia.
    apply HI; assumption.
  Qed.

  (* the property's radius, for BOTH maps: no blank pixel within box/2 + grid (per axis) => background and noise finite.
     Noise: each of the four nodes around the pixel has in its box a pixel q of the pixel's own cell (or, when the last
     cell of the image is one pixel wide, the previous pixel); the cell of q lies within one grid step of the pixel, so
     the four boxes that decide the background of q lie within box/2 + grid of the pixel, and q itself is finite. *)
  Lemma far_finite_abstract g img y c : wf g -> suball g = true -> (2 <= nr g)%Z -> (2 <= nc g)%Z -> in_image g y c ->
    (forall y' c', in_image g y' c' -> near g 1 y c y' c' -> img y' c' <> None) ->
    out_bkg g img y c <> None /\ out_rms g img y c <> None.
  Proof.
    intros Hwf Hs Hnr Hnc Hin HI. pose proof Hwf as (Hw & Hsr & Hsc & Hbr & Hbc). pose proof Hin as [Hy Hc].
    assert (Hb2r : (0 <= br g / 2)%Z) by (apply Z.div_pos; lia).
    assert (Hb2c : (0 <= bc g / 2)%Z) by (apply Z.div_pos; lia).
    assert (Hq : forall qr qc, in_image g qr qc ->
                   (glo_r g y <= qr < ghi_r g y \/ qr = y - 1)%Z -> (glo_c g c <= qc < ghi_c g c \/ qc = c - 1)%Z ->
                   img qr qc <> None /\ bkg_raw g img qr qc <> None).
    { intros qr qc [I1 I2] W1 W2.
      destruct (cell_near_r g y qr Hw Hsr Hy I1 W1) as (N1 & N2 & N3).
      destruct (cell_near 0 (nc g) (sc g) c qc Hsc Hc (proj1 I2) W2) as (M1 & M2 & M3). split.
      - apply HI; [split; assumption | unfold near; lia].
      - apply bkg_raw_finite_cell; try assumption; [split; assumption|].
        intros y' c' Hin' Hr' Hc'. apply HI; [exact Hin'|]. unfold near. lia. }
    destruct (Hq y c Hin) as [Hi Hb].
    { destruct (cell_r_facts g y Hw Hsr Hy) as (_ & F & _). left. exact F. }
    { pose proof (cell_bracket 0 (nc g) (sc g) c Hsc Hc). left. lia. }
    assert (Hm : masked g img y c = false).
    { rewrite masked_eq, Hs. cbn [orb]. destruct (osub RC (img y c) (bkg_raw g img y c)) eqn:E; [reflexivity|].
      destruct (osub_not_none RC _ _ Hi Hb E). }
    unfold BaneFilter.out_bkg, BaneFilter.out_rms. rewrite Hm, andb_false_r. split; [exact Hb|].
    apply pass_finite_cell; try assumption. intros qr qc Hin' _ _ W1 W2. rewrite sub_data_eq, Hs. cbn [orb].
    replace (st_drm g (y / wy g) + (qr - st_drm g (y / wy g)))%Z with qr by lia.
    apply osub_not_none; apply (Hq qr qc); assumption.
  Qed.

  Lemma no_blank_abstract g img y c : wf g -> suball g = true -> (2 <= nr g)%Z -> (2 <= nc g)%Z -> in_image g y c ->
    (forall y' c', in_image g y' c' -> img y' c' <> None) ->
    out_bkg g img y c <> None /\ out_rms g img y c <> None.
  Proof.
    intros Hwf Hs Hnr Hnc Hin HI. apply far_finite_abstract; try assumption. intros; apply HI; assumption.
  Qed.

  Lemma constant_abstract g img k y c : wf g -> suball g = true -> (2 <= nr g)%Z -> (2 <= nc g)%Z -> in_image g y c ->
    (forall y' c', in_image g y' c' -> img y' c' = Some k) ->
    out_bkg g img y c = Some k /\ out_rms g img y c = Some 0.
  Proof.
    intros Hwf Hs Hnr Hnc Hin HI.
    destruct (no_blank_abstract g img y c Hwf Hs Hnr Hnc Hin) as [N1 N2]; [intros y' c' H; rewrite (HI y' c' H); discriminate|].
    destruct (bounds_abstract g img k k y c Hwf Hs Hin) as [B1 B2].
    { intros y' c' w H E. rewrite (HI y' c' H) in E. injection E as <-. lra. }
    destruct (out_bkg g img y c) as [b|]; [|congruence]. destruct (out_rms g img y c) as [s|]; [|congruence].
    pose proof (B1 b eq_refl). pose proof (B2 s eq_refl). split; f_equal; lra.
  Qed.
End Abstract.

Lemma table_shape K g (m : pix K) : length (table K g m) = Z.to_nat (nr g) /\ Forall (fun row => length row = Z.to_nat (nc g)) (table K g m).
Proof.
  unfold table. rewrite map_length, zrange_length, Z.sub_0_r. split; [reflexivity|].
  apply Forall_forall. intros row H. apply in_map_iff in H as [y [<- _]]. rewrite map_length, zrange_length, Z.sub_0_r. reflexivity.
Qed.

Lemma table_ext K g (m m' : pix K) : (forall y c, m y c = m' y c) -> table K g m = table K g m'.
Proof. intros H. unfold table. apply map_ext. intros y. apply map_ext. intros c. apply H. Qed.

Lemma run_spec K est_b est_r g img :
  run K est_b est_r g img = (table K g (out_bkg K est_b g img), table K g (out_rms K est_b est_r g img)).
Proof.
  unfold run, out_bkg, out_rms, masked, rms_raw, sub_data.
  f_equal; apply table_ext; intros y c; rewrite memo2_eq; reflexivity.
Qed.

Lemma run_shape K est_b est_r g img :
  let o := run K est_b est_r g img in
  (length (fst o) = Z.to_nat (nr g) /\ Forall (fun row => length row = Z.to_nat (nc g)) (fst o))
  /\ (length (snd o) = Z.to_nat (nr g) /\ Forall (fun row => length row = Z.to_nat (nc g)) (snd o)).
Proof. cbv zeta. rewrite run_spec. cbn [fst snd]. split; apply table_shape. Qed.

Lemma est_mean_shift l k : l <> [] -> est_mean_r (map (fun x => x + k) l) = est_mean_r l + k.
Proof. intros H. unfold est_mean_r. rewrite sigmaclip_shift by exact H. reflexivity. Qed.
Lemma est_std_shift l k : l <> [] -> est_std_r (map (fun x => x + k) l) = est_std_r l.
Proof. intros H. unfold est_std_r. rewrite sigmaclip_shift by exact H. reflexivity. Qed.
Lemma est_mean_scale l k : l <> [] -> est_mean_r (map (fun x => k * x) l) = k * est_mean_r l.
Proof.
  intros H. unfold est_mean_r. destruct clip_levels_spec as [<- _]. rewrite <- clip_strict_spec.
  rewrite sigmaclip_scale by exact H. reflexivity.
Qed.
Lemma est_std_scale l k : l <> [] -> est_std_r (map (fun x => k * x) l) = Rabs k * est_std_r l.
Proof.
  intros H. unfold est_std_r. destruct clip_levels_spec as [<- _]. rewrite <- clip_strict_spec.
  rewrite sigmaclip_scale by exact H. reflexivity.
Qed.
Lemma est_mean_range l lo hi : l <> [] -> Forall (fun x => lo <= x <= hi) l -> lo <= est_mean_r l <= hi.
Proof. intros. unfold est_mean_r. apply sigmaclip_range; assumption. Qed.
Lemma est_std_range l M : l <> [] -> Forall (fun x => - M <= x <= M) l -> 0 <= est_std_r l <= M.
Proof. intros. unfold est_std_r. apply sigmaclip_std_range; assumption. Qed.

Notation bane_bkg := (out_bkg RC est_mean_r).
Notation bane_rms := (out_rms RC est_mean_r est_std_r).

Lemma sigmaclip_q_is_r l : l <> [] ->
  let r := sigmaclip_q clip_lo clip_hi clip_lower_strict clip_upper_strict clip_reps l in
  est_mean_r (map Q2R l) = Q2R (fst r) /\ est_std_r (map Q2R l) = sqrt (Q2R (snd r)).
Proof.
  intros H. cbv zeta. unfold est_mean_r, est_std_r. destruct clip_levels_spec as [E Hp].
  assert (Hh : (0 <= clip_hi)%Z) by (rewrite <- E; exact Hp).
  rewrite (sigmaclip_q2r clip_lo clip_hi clip_lower_strict clip_upper_strict Hp Hh clip_reps l H).
  split; reflexivity.
Qed.
