(* C07 - the BANE synchronisation protocol (Model/BaneProtocol.v) and the stripe layout.
   `step` is turned into a relation `moves` on the stripe that acts (step_iff); every move lowers the stripe's
   rank, which bounds the length of a run.  The invariant Inv of the reachable states of a good configuration
   (each stripe's flags agree with its program counter, nobody is past a barrier before all have arrived, a
   failure breaks the barrier) gives stable reads, progress and the unique fault-free final state.  Then the
   layout as a closed form (layout_nth), and the schedules that hang or race when a hypothesis of `good` is dropped.
   Axiom-free. *)
From Coq Require Import ZArith Bool List Lia Arith.
From Aegean Require Import Lib.Lists Gen.BaneSync Model.BaneProtocol.
Import ListNotations.
Local Open Scope nat_scope.

Lemma leaf_wait_before_read : wait_before_read = true. Proof. reflexivity. Qed.
Lemma leaf_wait_before_mask : wait_before_mask = true. Proof. reflexivity. Qed.
Lemma leaf_abort_on_error : abort_on_error = true. Proof. reflexivity. Qed.
Lemma leaf_pool_size : forall cores nn, pool_size cores nn = Z.max cores nn. Proof. reflexivity. Qed.

Lemma update_length {A} (l : list A) i x : length (update l i x) = length l.
Proof. revert i; induction l as [|h t IH]; intros [|i]; cbn; auto. Qed.

Lemma nth_update_eq {A} (l : list A) i x y :
  nth_error l i = Some x -> nth_error (update l i y) i = Some y.
Proof. revert i; induction l as [|h t IH]; intros [|i] H; cbn in *; try discriminate; auto. Qed.

Lemma nth_update_neq {A} (l : list A) i j y :
  j <> i -> nth_error (update l i y) j = nth_error l j.
Proof.
  revert i j; induction l as [|h t IH]; intros [|i] [|j] H; cbn; auto; try congruence.
Qed.

Lemma forallb_update {A} (f : A -> bool) l i x y :
  nth_error l i = Some x -> (f x = true -> f y = true) ->
  forallb f l = true -> forallb f (update l i y) = true.
Proof.
  revert i; induction l as [|h t IH]; intros [|i] Hn Hm Hf; cbn in *; try discriminate.
  - injection Hn as ->. apply andb_true_iff in Hf as [H1 H2]. rewrite Hm, H2; auto.
  - apply andb_true_iff in Hf as [H1 H2]. rewrite H1. cbn. eapply IH; eauto.
Qed.

Lemma update_app_mid {A} (pre : list A) h t y :
  update (pre ++ h :: t) (length pre) y = pre ++ y :: t.
Proof. induction pre as [|p pre IH]; cbn; auto. now rewrite IH. Qed.

Definition is_active (x : stripe) : bool :=
  match s_pc x with Bkg | Sub | Rms | Mask => true | _ => false end.
Definition is_waiting (x : stripe) : bool :=
  match s_pc x with Wait1 | Wait2 => true | _ => false end.
Definition faulty (a : act) : bool := match a with Fail | Break => true | _ => false end.

(* `step` seen from the stripe that moves: in state s, action a is enabled for a stripe x and
   turns it into y.  The guards are the boolean terms of `step`. *)
Inductive moves (c : cfg) (s : state) : act -> stripe -> stripe -> Prop :=
| mv_start x : s_pc x = Queued -> (running s <? pool c) = true -> moves c s Start x (set_pc x Bkg)
| mv_arrive1 x : s_pc x = Bkg ->
    moves c s Arrive1 x
      (mkStripe (if w1 c then Wait1 else Sub) true (arr2 x) true (rms_written x) (masked x) (seen x))
| mv_pass1 x : s_pc x = Wait1 -> negb (broken s) && forallb arr1 (stripes s) = true ->
    moves c s Pass1 x (set_pc x Sub)
| mv_read x : s_pc x = Sub ->
    moves c s Read x
      (mkStripe Rms (arr1 x) (arr2 x) (bkg_written x) (rms_written x) (masked x)
         (Some (forallb (fun y => bkg_written y && negb (masked y)) (stripes s))))
| mv_arrive2 x : s_pc x = Rms ->
    moves c s Arrive2 x
      (mkStripe (if domask c then (if w2 c then Wait2 else Mask) else Done)
         (arr1 x) true (bkg_written x) true (masked x) (seen x))
| mv_pass2 x : s_pc x = Wait2 -> negb (broken s) && forallb arr2 (stripes s) = true ->
    moves c s Pass2 x (set_pc x Mask)
| mv_finish x : s_pc x = Mask ->
    moves c s Finish x
      (mkStripe Done (arr1 x) (arr2 x) (bkg_written x) (rms_written x) true (seen x))
| mv_fail x : is_active x = true -> moves c s Fail x (set_pc x Failed)
| mv_break x : is_waiting x = true -> broken s = true -> moves c s Break x (set_pc x Failed).

Lemma step_iff c s i a s' : step c s i a = Some s' <->
  exists x y, nth_error (stripes s) i = Some x /\ moves c s a x y /\
              s' = mkState (update (stripes s) i y) (if faulty a then broken s || abrt c else broken s).
Proof.
  unfold step. split.
  - destruct (nth_error (stripes s) i) as [x|]; [|discriminate].
    intros H.
    assert (K : forall y, moves c s a x y ->
                Some (mkState (update (stripes s) i y) (if faulty a then broken s || abrt c else broken s)) = Some s' ->
                exists x' y, Some x = Some x' /\ moves c s a x' y /\
                  s' = mkState (update (stripes s) i y) (if faulty a then broken s || abrt c else broken s)).
    { intros y Hm [= <-]. exists x, y. auto. }
    (* per action: the program counters from which `step` allows it, then its guard *)
    destruct a.
    + destruct (s_pc x) eqn:Hpc; try discriminate H.
      destruct (running s <? pool c) eqn:G; [|discriminate H].
      exact (K _ (mv_start c s x Hpc G) H).
    + destruct (s_pc x) eqn:Hpc; try discriminate H.
      exact (K _ (mv_arrive1 c s x Hpc) H).
    + destruct (s_pc x) eqn:Hpc; try discriminate H.
      destruct (negb (broken s) && forallb arr1 (stripes s)) eqn:G; [|discriminate H].
      exact (K _ (mv_pass1 c s x Hpc G) H).
    + destruct (s_pc x) eqn:Hpc; try discriminate H.
      exact (K _ (mv_read c s x Hpc) H).
    + destruct (s_pc x) eqn:Hpc; try discriminate H.
      exact (K _ (mv_arrive2 c s x Hpc) H).
    + destruct (s_pc x) eqn:Hpc; try discriminate H.
      destruct (negb (broken s) && forallb arr2 (stripes s)) eqn:G; [|discriminate H].
      exact (K _ (mv_pass2 c s x Hpc G) H).
    + destruct (s_pc x) eqn:Hpc; try discriminate H.
      exact (K _ (mv_finish c s x Hpc) H).
    + assert (A : is_active x = true) by (unfold is_active; destruct (s_pc x); (reflexivity || discriminate H)).
      refine (K _ (mv_fail c s x A) _).
      destruct (s_pc x); (exact H || discriminate H).
    + assert (W : is_waiting x = true) by (unfold is_waiting; destruct (s_pc x); (reflexivity || discriminate H)).
      destruct (broken s) eqn:G; [|destruct (s_pc x); discriminate H].
      refine (K _ (mv_break c s x W G) _).
      destruct (s_pc x); (exact H || discriminate H).
  - intros (x & y & -> & Hm & ->).
    destruct Hm as [x H G|x H|x H G|x H|x H|x H G|x H|x H|x H G]; cbn [faulty].
    + rewrite H, G. reflexivity.
    + rewrite H. reflexivity.
    + rewrite H, G. reflexivity.
    + rewrite H. reflexivity.
    + rewrite H. reflexivity.
    + rewrite H, G. reflexivity.
    + rewrite H. reflexivity.
    + unfold is_active in H. destruct (s_pc x); (reflexivity || discriminate H).
    + unfold is_waiting in H. rewrite G. destruct (s_pc x); (reflexivity || discriminate H).
Qed.

(* Fail and Break end in Failed, of rank 0, and start from a counter of positive rank *)
Lemma moves_rank c s a x y : moves c s a x y -> rank (s_pc y) < rank (s_pc x).
Proof.
  intros [z H _|z H|z H _|z H|z H|z H _|z H|z H|z H _]; cbn [s_pc set_pc].
  - rewrite H. cbn [rank]. lia.
  - rewrite H. destruct (w1 c); cbn [rank]; lia.
  - rewrite H. cbn [rank]. lia.
  - rewrite H. cbn [rank]. lia.
  - rewrite H. destruct (domask c), (w2 c); cbn [rank]; lia.
  - rewrite H. cbn [rank]. lia.
  - rewrite H. cbn [rank]. lia.
  - unfold is_active in H. destruct (s_pc z); (discriminate H || (cbn [rank]; lia)).
  - unfold is_waiting in H. destruct (s_pc z); (discriminate H || (cbn [rank]; lia)).
Qed.

Lemma moves_failed c s a x y : moves c s a x y -> s_pc y = Failed <-> faulty a = true.
Proof.
  intros Hm. destruct Hm; cbn [s_pc set_pc faulty].
  8, 9: split; reflexivity.
  (* Arrive1 and Arrive2 choose the next counter by the configuration; the other moves name it *)
  2: destruct (w1 c).
  6: destruct (domask c), (w2 c).
  all: split; discriminate.
Qed.

Lemma measure_update l b b' i x y :
  nth_error l i = Some x -> rank (s_pc y) < rank (s_pc x) ->
  measure (mkState (update l i y) b') < measure (mkState l b).
Proof.
  unfold measure. cbn [stripes].
  revert i; induction l as [|h t IH]; intros [|i] Hn Hr; cbn in *; try discriminate.
  - injection Hn as ->. lia.
  - specialize (IH _ Hn Hr). lia.
Qed.

Lemma measure_decreases : forall c s i a s', step c s i a = Some s' -> measure s' < measure s.
Proof.
  intros c [l b] i a s' H. apply step_iff in H as (x & y & Hx & Hm & ->).
  eapply measure_update; [exact Hx | eapply moves_rank, Hm].
Qed.

Lemma measure_init c : measure (init c) = rank Queued * n c.
Proof. unfold measure. cbn [init stripes]. induction (n c); cbn in *; lia. Qed.

Lemma run_ind c (P : state -> list (nat * act) -> state -> Prop) :
  (forall s, P s [] s) ->
  (forall s i a s1 rest s', step c s i a = Some s1 -> P s1 rest s' -> P s ((i, a) :: rest) s') ->
  forall sched s s', run c s sched = Some s' -> P s sched s'.
Proof.
  intros P0 PS. induction sched as [|[i a] rest IH]; intros s s' H; cbn in H.
  - injection H as <-. apply P0.
  - destruct (step c s i a) as [s1|] eqn:Hs; [|discriminate]. eauto.
Qed.

Lemma run_reachable : forall c sched s s', reachable c s -> run c s sched = Some s' -> reachable c s'.
Proof.
  intros c sched s s' Hr H.
  apply (run_ind c (fun s _ s' => reachable c s -> reachable c s')) in H; eauto using reach_step.
Qed.

(* a failure is never lost: the parent raises *)
Definition failed_in (s : state) : Prop :=
  exists j x, nth_error (stripes s) j = Some x /\ s_pc x = Failed.

Lemma raise_iff s : parent_outcome s = Raise <-> failed_in s.
Proof.
  unfold parent_outcome, failed_in.
  transitivity (existsb (fun x => match s_pc x with Failed => true | _ => false end) (stripes s) = true).
  - destruct (existsb _ (stripes s)); split; (discriminate || reflexivity).
  - rewrite existsb_nth_error. split; intros (j & x & Hj & Hx); exists j, x; (split; [exact Hj|]).
    + destruct (s_pc x); (discriminate || reflexivity).
    + rewrite Hx. reflexivity.
Qed.

(* a failed stripe has rank 0, so it is not the one that moves *)
Lemma step_keeps_failed c s i a s' : step c s i a = Some s' -> failed_in s -> failed_in s'.
Proof.
  intros H (j & z & Hj & Hz). apply step_iff in H as (x & y & Hx & Hm & ->).
  exists j, z. split; [|exact Hz]. cbn [stripes]. rewrite nth_update_neq; [exact Hj|].
  intros ->. apply moves_rank in Hm. rewrite Hx in Hj. injection Hj as ->. rewrite Hz in Hm. inversion Hm.
Qed.

Lemma step_fail_failed c s i s' : step c s i Fail = Some s' -> failed_in s'.
Proof.
  intros H. apply step_iff in H as (x & y & Hx & Hm & ->). exists i, y. cbn [stripes].
  split; [eapply nth_update_eq, Hx | apply (moves_failed _ _ _ _ _ Hm); reflexivity].
Qed.

Definition all1 (s : state) : bool := forallb arr1 (stripes s).
Definition all2 (s : state) : bool := forallb arr2 (stripes s).

(* what a stripe's own moves fix about its flags, in every configuration *)
Definition stripe_inv (c : cfg) (x : stripe) : Prop :=
  (arr1 x = true -> bkg_written x = true) /\
  (match s_pc x with Wait1 | Sub | Rms | Wait2 | Mask | Done => arr1 x = true | _ => True end) /\
  (match s_pc x with Wait2 | Mask | Done => arr2 x = true /\ rms_written x = true | _ => True end) /\
  (match s_pc x with Queued | Bkg | Wait1 | Sub | Rms => arr2 x = false /\ masked x = false | _ => True end) /\
  (match s_pc x with Wait2 | Mask => domask c = true | _ => True end) /\
  (s_pc x = Done -> masked x = domask c) /\
  (match s_pc x with Rms | Wait2 | Mask | Done => seen x <> None | _ => True end).

Lemma moves_stripe_inv c s a x y : moves c s a x y -> stripe_inv c x -> stripe_inv c y.
Proof.
  unfold stripe_inv.
  intros [z H _|z H|z H _|z H|z H|z H _|z H|z _|z _ _] (L1 & L2 & L3 & L4 & L5 & L6 & L7);
    cbn [s_pc arr1 arr2 bkg_written rms_written masked seen set_pc].
  - (* Start: Queued -> Bkg, where the clauses ask the same or less *)
    rewrite H in *. cbn in *. repeat split; solve [tauto | discriminate].
  - (* Arrive1: Bkg -> Wait1 or Sub, sets arr1 and bkg_written *)
    rewrite H in *. cbn in *. destruct (w1 c); repeat split; solve [reflexivity | discriminate | apply L4].
  - (* Pass1: Wait1 -> Sub, no flag changes *)
    rewrite H in *. cbn in *. repeat split; solve [tauto | discriminate].
  - (* Read: Sub -> Rms, sets seen *)
    rewrite H in *. cbn in *. repeat split; solve [assumption | discriminate | apply L4].
  - (* Arrive2: Rms -> Wait2, Mask or Done, sets arr2 and rms_written; masked is still false *)
    rewrite H in *. cbn in *. destruct L4 as [_ L4]. destruct (domask c), (w2 c); repeat split; solve [auto | discriminate].
  - (* Pass2: Wait2 -> Mask, no flag changes *)
    rewrite H in *. cbn in *. repeat split; solve [tauto | discriminate].
  - (* Finish: Mask -> Done, sets masked *)
    rewrite H in *. cbn in *. repeat split; solve [tauto | discriminate | symmetry; exact L5].
  - (* Fail, Break: the flags stay, and of a Failed stripe only the first clause speaks *)
    repeat split; solve [exact L1 | discriminate].
  - repeat split; solve [exact L1 | discriminate].
Qed.

Lemma moves_mono c s a x y : moves c s a x y ->
  (arr1 x = true -> arr1 y = true) /\ (arr2 x = true -> arr2 y = true).
Proof. intros []; cbn; auto. Qed.

Lemma moves_seen c s a x y : moves c s a x y ->
  seen y = seen x \/
  s_pc x = Sub /\ seen y = Some (forallb (fun z => bkg_written z && negb (masked z)) (stripes s)).
Proof. intros []; cbn; auto. Qed.

(* with both waits in place, a stripe gets past a barrier only when all have arrived *)
Lemma moves_sub c s a x y : w1 c = true -> moves c s a x y -> s_pc y = Sub -> all1 s = true.
Proof.
  intros Hw Hm E. destruct Hm as [z H G|z H|z H G|z H|z H|z H G|z H|z H|z H G];
    cbn [s_pc set_pc] in E; try discriminate E.
  - (* Arrive1 goes to Wait1 *)
    rewrite Hw in E. discriminate E.
  - (* Pass1 needs every stripe arrived *)
    apply andb_true_iff in G. apply G.
  - (* Arrive2 goes to Wait2, Mask or Done *)
    destruct (domask c), (w2 c); discriminate E.
Qed.

Lemma moves_mask c s a x y : w2 c = true -> moves c s a x y ->
  s_pc y = Mask \/ masked y = true -> all2 s = true \/ s_pc x = Mask \/ masked x = true.
Proof.
  intros Hw Hm E. destruct Hm as [z H G|z H|z H G|z H|z H|z H G|z H|z H|z H G];
    cbn [s_pc masked set_pc] in E.
  (* the moves that keep `masked` and end in a counter other than Mask *)
  1, 3, 4, 8, 9: destruct E as [E|E]; [discriminate E | auto].
  - (* Arrive1 goes to Wait1 or Sub *)
    destruct E as [E|E]; [destruct (w1 c); discriminate E | auto].
  - (* Arrive2 goes to Wait2 or Done *)
    rewrite Hw in E. destruct E as [E|E]; [destruct (domask c); discriminate E | auto].
  - (* Pass2 needs every stripe arrived *)
    left. apply andb_true_iff in G. apply G.
  - (* Finish starts from Mask *)
    auto.
Qed.

Definition Inv (c : cfg) (s : state) : Prop :=
  length (stripes s) = n c /\
  forall j x, nth_error (stripes s) j = Some x ->
    stripe_inv c x /\ seen x <> Some false /\
    (s_pc x = Sub -> all1 s = true) /\
    (s_pc x = Mask \/ masked x = true -> all2 s = true) /\
    (s_pc x = Failed -> broken s = true).

Lemma inv_init c : Inv c (init c).
Proof.
  split; [apply repeat_length|].
  intros j x Hj. apply nth_error_In in Hj. cbn in Hj. apply repeat_spec in Hj. subst x.
  unfold stripe_inv; cbn. intuition discriminate.
Qed.

(* the key global fact: when a stripe is about to read, all backgrounds are written and no
   stripe has been masked *)
Lemma inv_read_sees_true c s i x :
  Inv c s -> nth_error (stripes s) i = Some x -> s_pc x = Sub ->
  forallb (fun y => bkg_written y && negb (masked y)) (stripes s) = true.
Proof.
  intros [_ HI] Hx Hpc.
  destruct (HI _ _ Hx) as ((_ & _ & _ & L4 & _) & _ & HA1 & _). rewrite Hpc in L4.
  specialize (HA1 Hpc).
  apply forallb_forall. intros z Hz. apply In_nth_error in Hz as [j Hj].
  destruct (HI _ _ Hj) as ((Hb & _) & _ & _ & HM & _).
  rewrite Hb by (eapply forallb_nth; [exact HA1 | exact Hj]). cbn.
  destruct (masked z); auto.
  assert (arr2 x = true) by (eapply forallb_nth; [apply HM; auto | exact Hx]).
  destruct L4; congruence.
Qed.

Lemma inv_step c s i a s' : good c -> Inv c s -> step c s i a = Some s' -> Inv c s'.
Proof.
  intros (_ & _ & Hw1 & Hw2 & Hab) HInv H. pose proof HInv as [HL HI].
  apply step_iff in H as (x & y & Hx & Hm & ->).
  destruct (moves_mono _ _ _ _ _ Hm) as [M1 M2].
  destruct (HI _ _ Hx) as (Lx & Sx & A1x & A2x & _).
  assert (A1 : all1 s = true -> forallb arr1 (update (stripes s) i y) = true)
    by (eapply forallb_update; eauto).
  assert (A2 : all2 s = true -> forallb arr2 (update (stripes s) i y) = true)
    by (eapply forallb_update; eauto).
  split; unfold all1, all2; cbn [stripes broken].
  - rewrite update_length; auto.
  - intros j z Hj. destruct (Nat.eq_dec j i) as [->|Hne].
    + rewrite (nth_update_eq _ _ x) in Hj by auto. injection Hj as <-.
      split; [eapply moves_stripe_inv; eauto|]. split; [|split; [|split]].
      * destruct (moves_seen _ _ _ _ _ Hm) as [->|[Hpc ->]]; [exact Sx|].
        rewrite (inv_read_sees_true c s i x) by auto. discriminate.
      * intros E. eapply A1, moves_sub; eauto.
      * intros E. apply A2. destruct (moves_mask _ _ _ _ _ Hw2 Hm E); auto.
      * intros E. apply (moves_failed _ _ _ _ _ Hm) in E. rewrite E, Hab. apply orb_true_r.
    + rewrite nth_update_neq in Hj by auto.
      destruct (HI _ _ Hj) as (Lz & Sz & A1z & A2z & Fz).
      split; [exact Lz|]. split; [exact Sz|]. split; [auto|]. split; [auto|].
      intros E. rewrite (Fz E). destruct (faulty a); reflexivity.
Qed.

Lemma reachable_inv c s : good c -> reachable c s -> Inv c s.
Proof.
  intros Hg Hr. induction Hr as [|s i a s' Hr IH Hs]; [apply inv_init|eapply inv_step; eauto].
Qed.

(* a slot is free for a queued stripe: it is itself not among the running ones *)
Lemma start_enabled c s i x : n c <= pool c -> length (stripes s) = n c ->
  nth_error (stripes s) i = Some x -> s_pc x = Queued -> moves c s Start x (set_pc x Bkg).
Proof.
  intros Hp HL Hx Hpc. apply mv_start; [exact Hpc|].
  apply Nat.ltb_lt, Nat.lt_le_trans with (length (stripes s)); [|lia].
  apply filter_lt_length with x; [eapply nth_error_In, Hx | rewrite Hpc; reflexivity].
Qed.

(* at an unbroken barrier nobody has failed, so once every stripe has got as far as the first
   (second) wait, every stripe has arrived there *)
Lemma all_arrived c s r : Inv c s -> broken s = false ->
  (forall j z, nth_error (stripes s) j = Some z -> (r <? rank (s_pc z)) = false) ->
  (r <= rank Wait1 -> all1 s = true) /\ (r <= rank Wait2 -> all2 s = true).
Proof.
  intros [_ HI] Hb Hr.
  assert (H : forall z, In z (stripes s) -> rank (s_pc z) <= r /\ s_pc z <> Failed /\ stripe_inv c z).
  { intros z Hz. apply In_nth_error in Hz as [j Hj]. destruct (HI _ _ Hj) as (L & _ & _ & _ & F).
    split; [apply Nat.ltb_ge, (Hr _ _ Hj)|]. split; [intros E; rewrite (F E) in Hb; discriminate|exact L]. }
  split; intros Hle; apply forallb_forall; intros z Hz; destruct (H z Hz) as (R & NF & _ & L2 & L3 & _).
  - (* rank at most rank Wait1 and not failed: at Wait1 or beyond, where stripe_inv gives arr1 *)
    destruct (s_pc z); cbn [rank] in R, Hle; (lia || congruence || exact L2).
  - (* rank at most rank Wait2 and not failed: at Wait2 or beyond, where stripe_inv gives arr2 *)
    destruct (s_pc z); cbn [rank] in R, Hle; (lia || congruence || apply L3).
Qed.

Lemma nonfail_move_steps c s i x a y : nth_error (stripes s) i = Some x -> moves c s a x y -> a <> Fail ->
  exists i a s', step c s i a = Some s' /\ a <> Fail.
Proof. intros Hx Hm Ha. exists i, a. eexists. split; [apply step_iff; eauto|exact Ha]. Qed.

(* a stripe at a wait moves as soon as no stripe is behind it: on through the barrier, or out of
   it with BrokenBarrierError *)
Lemma waiting_moves c s i x : Inv c s -> nth_error (stripes s) i = Some x -> is_waiting x = true ->
  (forall j z, nth_error (stripes s) j = Some z -> (rank (s_pc x) <? rank (s_pc z)) = false) ->
  exists i a s', step c s i a = Some s' /\ a <> Fail.
Proof.
  intros HI Hx Hw B. destruct (broken s) eqn:Hb.
  - eapply nonfail_move_steps; [exact Hx|apply mv_break; assumption|discriminate].
  - destruct (all_arrived c s _ HI Hb B) as [A1 A2].
    unfold is_waiting in Hw. destruct (s_pc x) eqn:Hpc; try discriminate Hw.
    + eapply (nonfail_move_steps c s i x Pass1); [exact Hx| |discriminate].
      apply mv_pass1; [exact Hpc|]. rewrite Hb. apply A1. reflexivity.
    + eapply (nonfail_move_steps c s i x Pass2); [exact Hx| |discriminate].
      apply mv_pass2; [exact Hpc|]. rewrite Hb. apply A2. reflexivity.
Qed.

(* some stripe can move without a fault of its own: one that has not reached the first wait, else
   one that has not reached the second, else any that has not ended *)
Lemma progress_no_fault c s : good c -> reachable c s -> final s = false ->
  exists i a s', step c s i a = Some s' /\ a <> Fail.
Proof.
  intros Hg Hr Hfin. pose proof (reachable_inv _ _ Hg Hr) as HI. destruct Hg as (_ & Hp & _).
  destruct (nth_dec (fun z => rank Wait1 <? rank (s_pc z)) (stripes s)) as [(j & z & Hz & E)|B1].
  { destruct (s_pc z) eqn:Hpc; try discriminate E.
    - eapply nonfail_move_steps; [exact Hz|eapply start_enabled; eauto; apply HI|discriminate].
    - eapply nonfail_move_steps; [exact Hz|apply mv_arrive1, Hpc|discriminate]. }
  destruct (nth_dec (fun z => rank Wait2 <? rank (s_pc z)) (stripes s)) as [(j & z & Hz & E)|B2].
  { pose proof (B1 _ _ Hz) as E1. destruct (s_pc z) eqn:Hpc; try discriminate E; try discriminate E1.
    - apply (waiting_moves c s j z HI Hz).
      + unfold is_waiting. rewrite Hpc. reflexivity.
      + rewrite Hpc. exact B1.
    - eapply nonfail_move_steps; [exact Hz|apply mv_read, Hpc|discriminate].
    - eapply nonfail_move_steps; [exact Hz|apply mv_arrive2, Hpc|discriminate]. }
  apply forallb_false_nth in Hfin as (i & x & Hx & Hxf).
  pose proof (B2 _ _ Hx) as E2. destruct (s_pc x) eqn:Hpc; try discriminate E2; try discriminate Hxf.
  - apply (waiting_moves c s i x HI Hx).
    + unfold is_waiting. rewrite Hpc. reflexivity.
    + rewrite Hpc. exact B2.
  - eapply nonfail_move_steps; [exact Hx|apply mv_finish, Hpc|discriminate].
Qed.

Lemma progress : forall c s, good c -> reachable c s -> final s = false ->
  exists i a s', step c s i a = Some s'.
Proof.
  intros c s Hg Hr Hfin. destruct (progress_no_fault c s Hg Hr Hfin) as (i & a & s' & H & _). eauto.
Qed.

Lemma step_unbroken c s i a s' :
  step c s i a = Some s' -> a <> Fail -> broken s = false -> broken s' = false.
Proof.
  intros H Ha Hb. apply step_iff in H as (x & y & _ & Hm & ->). cbn [broken]. rewrite Hb.
  destruct Hm; try reflexivity; congruence.
Qed.

Lemma fault_free_final : forall c sched s, good c -> run c (init c) sched = Some s -> final s = true ->
  has_fault sched = false -> s = final_state c.
Proof.
  intros c sched s Hg Hrun Hfin Hnf.
  assert (Hr : reachable c s) by (eapply run_reachable; [apply reach_init | exact Hrun]).
  pose proof (reachable_inv _ _ Hg Hr) as [HL HI].
  assert (Hb : broken s = false).
  { apply (run_ind c (fun s sched s' => has_fault sched = false -> broken s = false -> broken s' = false))
      in Hrun; auto.
    intros s0 i a s1 rest s' Hs IH Hf. cbn in Hf. apply orb_false_iff in Hf as [Hf1 Hf2].
    intros Hb. apply IH; [exact Hf2|]. eapply step_unbroken; eauto. intros ->. discriminate. }
  destruct s as [l b]. cbn [stripes broken] in *. subst b. unfold final_state. f_equal.
  rewrite <- HL. apply Forall_eq_repeat, Forall_forall. intros x Hin. symmetry.
  unfold final in Hfin. cbn [stripes] in Hfin. rewrite forallb_forall in Hfin.
  pose proof (Hfin _ Hin) as Hx. apply In_nth_error in Hin as [j Hj].
  destruct (HI _ _ Hj) as ((L1 & L2 & L3 & _ & _ & L6 & L7) & Sx & _ & _ & F).
  destruct x as [p x1 x2 xb xr xm xs]. cbn in *.
  destruct p; try discriminate; [|specialize (F eq_refl); discriminate].
  destruct L3 as [L3 L3']. unfold done_stripe. rewrite L2, L3, L3', (L1 L2), (L6 eq_refl).
  destruct xs as [[|]|]; congruence.
Qed.

Section Layout.
Local Open Scope Z_scope.

(* the stripes from lo on: stripe k is [lo + k w, min (lo + k w + w) hi), for the k with lo + k w < hi *)
Lemma layout_from hi w : 1 <= w -> forall f lo k, hi - lo <= Z.of_nat f ->
  nth_error (combine (range_step lo hi w f) (range_step (lo + w) hi w f ++ [hi])) k =
  if lo + Z.of_nat k * w <? hi then Some (lo + Z.of_nat k * w, Z.min (lo + Z.of_nat k * w + w) hi) else None.
Proof.
  intros Hw. induction f as [|f IH]; intros lo k Hf; cbn [range_step combine].
  - destruct (Z.ltb_spec (lo + Z.of_nat k * w) hi); [nia|]. destruct k; reflexivity.
  - destruct (Z.ltb_spec lo hi) as [Hlt|Hge].
    + destruct (Z.ltb_spec (lo + w) hi) as [Hlt'|Hge']; cbn [app combine]; destruct k as [|k]; cbn [nth_error].
      * rewrite Z.add_0_r. apply Z.ltb_lt in Hlt. rewrite Hlt, Z.min_l by lia. reflexivity.
      * rewrite IH by lia. replace (lo + w + Z.of_nat k * w) with (lo + Z.of_nat (S k) * w) by lia. reflexivity.
      * rewrite Z.add_0_r. apply Z.ltb_lt in Hlt. rewrite Hlt, Z.min_r by lia. reflexivity.
      * rewrite combine_nil. destruct (Z.ltb_spec (lo + Z.of_nat (S k) * w) hi); [nia|]. destruct k; reflexivity.
    + destruct (Z.ltb_spec (lo + Z.of_nat k * w) hi); [nia|]. destruct k; reflexivity.
Qed.

Lemma layout_nth rows w k : 1 <= w ->
  nth_error (layout rows w) k =
  if Z.of_nat k * w <? rows then Some (Z.of_nat k * w, Z.min (Z.of_nat k * w + w) rows) else None.
Proof. intros Hw. apply (layout_from rows w Hw (Z.to_nat rows) 0 k). lia. Qed.

Lemma layout_nth_some rows w k a b : 1 <= w -> nth_error (layout rows w) k = Some (a, b) ->
  a = Z.of_nat k * w /\ a < rows /\ b = Z.min (a + w) rows.
Proof.
  intros Hw. rewrite layout_nth by assumption.
  destruct (Z.ltb_spec (Z.of_nat k * w) rows); [|discriminate]. intros [= <- <-]. auto.
Qed.

Lemma layout_length rows w : 1 <= rows -> 1 <= w ->
  (Z.of_nat (length (layout rows w)) - 1) * w < rows <= Z.of_nat (length (layout rows w)) * w.
Proof.
  intros Hr Hw. set (L := length (layout rows w)).
  assert (N : nth_error (layout rows w) L = None) by (apply nth_error_None; lia).
  rewrite layout_nth in N by assumption. destruct (Z.ltb_spec (Z.of_nat L * w) rows); [discriminate|].
  split; [|assumption]. destruct L as [|L'] eqn:E; [lia|].
  assert (S : nth_error (layout rows w) L' <> None) by (apply nth_error_Some; lia).
  rewrite layout_nth in S by assumption. destruct (Z.ltb_spec (Z.of_nat L' * w) rows); [lia|congruence].
Qed.

Lemma layout_tiles : forall rows w, 1 <= rows -> 1 <= w ->
  layout rows w <> [] /\
  (exists b, nth_error (layout rows w) 0 = Some (0, b)) /\
  (exists a, nth_error (layout rows w) (length (layout rows w) - 1) = Some (a, rows)) /\
  (forall k a b, nth_error (layout rows w) k = Some (a, b) -> a < b) /\
  (forall k a b a' b', nth_error (layout rows w) k = Some (a, b) ->
                       nth_error (layout rows w) (S k) = Some (a', b') -> a' = b).
Proof.
  intros rows w Hr Hw. pose proof (layout_length rows w Hr Hw) as HL.
  assert (H0 : nth_error (layout rows w) 0 = Some (0, Z.min w rows)).
  { rewrite layout_nth by assumption. cbn. destruct (Z.ltb_spec 0 rows); [reflexivity|lia]. }
  split; [intros E; rewrite E in H0; discriminate|]. split; [eauto|]. split; [|split].
  - rewrite layout_nth by assumption.
    replace (Z.of_nat (length (layout rows w) - 1)) with (Z.of_nat (length (layout rows w)) - 1) by nia.
    destruct (Z.ltb_spec ((Z.of_nat (length (layout rows w)) - 1) * w) rows); [|lia].
    eexists. f_equal. f_equal. lia.
  - intros k a b H. apply layout_nth_some in H as (-> & Ha & ->); lia.
  - intros k a b a' b' H H'.
    apply layout_nth_some in H as (-> & Ha & ->), H' as (-> & Ha' & _); lia.
Qed.

Lemma row_in_one_stripe : forall rows w r, 1 <= rows -> 1 <= w -> 0 <= r < rows ->
  exists k a b, nth_error (layout rows w) k = Some (a, b) /\ a <= r < b /\
    forall k' a' b', nth_error (layout rows w) k' = Some (a', b') -> a' <= r < b' -> k' = k.
Proof.
  intros rows w r Hr Hw Hrr.
  pose proof (Z.div_mod r w ltac:(lia)) as D. pose proof (Z.mod_pos_bound r w ltac:(lia)) as B.
  assert (0 <= r / w) by (apply Z.div_pos; lia).
  exists (Z.to_nat (r / w)), (r / w * w), (Z.min (r / w * w + w) rows).
  rewrite layout_nth, Z2Nat.id by assumption.
  destruct (Z.ltb_spec (r / w * w) rows); [|nia]. split; [reflexivity|]. split; [lia|].
  intros k' a' b' Hn Hk. apply layout_nth_some in Hn as (-> & _ & ->); [|assumption].
  apply Nat2Z.inj. rewrite Z2Nat.id by assumption. nia.
Qed.

End Layout.

Definition wait1_stripe : stripe := mkStripe Wait1 true false true false false None.
Definition failed_stripe : stripe := mkStripe Failed false false false false false None.

Lemma running_app_fresh pre k br : running (mkState (pre ++ repeat fresh k) br) <= length pre.
Proof.
  unfold running. cbn [stripes].  rewrite filter_app, filter_repeat, app_nil_r.
  apply filter_le_length.
Qed.

Lemma step_start_mid c pre t br :
  running (mkState (pre ++ fresh :: t) br) < pool c ->
  step c (mkState (pre ++ fresh :: t) br) (length pre) Start
  = Some (mkState (pre ++ set_pc fresh Bkg :: t) br).
Proof.
  intros H. apply Nat.ltb_lt in H. unfold step. cbn [stripes broken].
  rewrite nth_app_mid. cbn [s_pc fresh]. rewrite H, update_app_mid. reflexivity.
Qed.

Lemma step_arrive1_mid c pre t br :
  w1 c = true ->
  step c (mkState (pre ++ set_pc fresh Bkg :: t) br) (length pre) Arrive1
  = Some (mkState (pre ++ wait1_stripe :: t) br).
Proof.
  intros H. unfold step. cbn [stripes broken]. rewrite nth_app_mid. cbn. rewrite H, update_app_mid.
  reflexivity.
Qed.

(* start stripes |pre| .. |pre|+k-1 one after the other and let each arrive at the first wait *)
Lemma fill_reach c : w1 c = true -> forall k pre m br,
  length pre + k <= pool c ->
  reachable c (mkState (pre ++ repeat fresh (k + m)) br) ->
  reachable c (mkState (pre ++ repeat wait1_stripe k ++ repeat fresh m) br).
Proof.
  intros Hw1. induction k as [|k IH]; intros pre m br Hlen Hr; [exact Hr|].
  cbn [repeat Nat.add app] in *.
  assert (E : pre ++ wait1_stripe :: repeat wait1_stripe k ++ repeat fresh m
              = (pre ++ [wait1_stripe]) ++ repeat wait1_stripe k ++ repeat fresh m)
    by (rewrite <- app_assoc; reflexivity).
  rewrite E. apply IH; [rewrite app_length; cbn; lia|].
  rewrite <- app_assoc. cbn [app].
  eapply reach_step; [|apply step_arrive1_mid; exact Hw1].
  eapply reach_step; [exact Hr|]. apply step_start_mid.
  pose proof (running_app_fresh pre (S (k + m)) br) as Hrun. cbn [repeat] in Hrun. lia.
Qed.

Lemma forallb_arr1_wait1 k : forallb arr1 (repeat wait1_stripe k) = true.
Proof. induction k; cbn; auto. Qed.

Lemma small_pool_deadlocks : forall c, 1 <= pool c -> pool c < n c -> w1 c = true ->
  exists s, reachable c s /\ final s = false /\ forall i a, step c s i a = None.
Proof.
  intros c Hp Hn Hw1.
  exists (mkState (repeat wait1_stripe (pool c) ++ repeat fresh (n c - pool c)) false).
  split; [|split].
  - apply (fill_reach c Hw1 (pool c) [] (n c - pool c) false); [cbn; lia|].
    cbn [app]. replace (pool c + (n c - pool c)) with (n c) by lia. apply reach_init.
  - unfold final. cbn [stripes]. destruct (pool c) as [|p]; [lia|]. reflexivity.
  - intros i a. unfold step. cbn [stripes broken].
    destruct (nth_error _ i) as [x|] eqn:Hx; [|reflexivity].
    apply nth_error_In in Hx. apply in_app_or in Hx as [Hx|Hx]; apply repeat_spec in Hx; subst x.
    + destruct a; try reflexivity. cbn [s_pc wait1_stripe].
      destruct (n c - pool c) as [|m] eqn:Em; [lia|].
      rewrite forallb_app. cbn [repeat forallb arr1 fresh]. rewrite andb_false_r. reflexivity.
    + destruct a; try reflexivity. cbn [s_pc fresh].
      unfold running. cbn [stripes]. 
      rewrite filter_app, !filter_repeat. cbn [busy s_pc fresh wait1_stripe]. rewrite app_nil_r, repeat_length.
      rewrite Nat.ltb_irrefl. reflexivity.
Qed.

Lemma no_abort_hangs : forall c, 2 <= n c -> n c <= pool c -> w1 c = true -> abrt c = false ->
  exists s, reachable c s /\ final s = false /\ forall i a, step c s i a = None.
Proof.
  intros c Hn Hp Hw1 Hab.
  exists (mkState ([failed_stripe] ++ repeat wait1_stripe (n c - 1) ++ repeat fresh 0) false).
  split; [|split].
  - apply (fill_reach c Hw1 (n c - 1) [failed_stripe] 0 false); [cbn; lia|].
    replace (n c - 1 + 0) with (n c - 1) by lia.
    assert (R0 : reachable c (mkState ([] ++ fresh :: repeat fresh (n c - 1)) false)).
    { cbn [app]. change (fresh :: repeat fresh (n c - 1)) with (repeat fresh (S (n c - 1))).
      replace (S (n c - 1)) with (n c) by lia. apply reach_init. }
    apply (reach_step c (mkState ([] ++ set_pc fresh Bkg :: repeat fresh (n c - 1)) false) 0 Fail).
    + apply (reach_step c _ 0 Start _ R0). apply (step_start_mid c []).
      pose proof (running_app_fresh [] (S (n c - 1)) false) as Hrun. cbn [repeat length] in Hrun. lia.
    + unfold step. cbn. rewrite Hab. reflexivity.
  - unfold final. cbn [stripes]. destruct (n c - 1) as [|p] eqn:E; [lia|]. reflexivity.
  - intros i a. unfold step. cbn [stripes broken].
    destruct (nth_error _ i) as [x|] eqn:Hx; [|reflexivity].
    apply nth_error_In in Hx. rewrite app_nil_r in Hx.
    apply in_app_or in Hx as [Hx|Hx].
    + destruct Hx as [<-|[]]. destruct a; reflexivity.
    + apply repeat_spec in Hx; subst x. destruct a; reflexivity.
Qed.

Lemma no_second_wait_races : forall c, 2 <= n c -> n c <= pool c -> w1 c = true -> w2 c = false ->
  domask c = true ->
  exists s i x, reachable c s /\ nth_error (stripes s) i = Some x /\ seen x = Some false.
Proof.
  intros c Hn Hp Hw1 Hw2 Hdm.
  assert (R0 : reachable c (mkState (repeat wait1_stripe (n c)) false)).
  { pose proof (fill_reach c Hw1 (n c) [] 0 false) as H. cbn [app length] in H.
    rewrite app_nil_r, Nat.add_0_r in H. apply H; [lia|apply reach_init]. }
  destruct (n c) as [|[|n']] eqn:En; [lia|lia|]. cbn [repeat] in R0.
  pose (sched := [(0, Pass1); (0, Read); (0, Arrive2); (0, Finish); (1, Pass1); (1, Read)]).
  assert (Hrun : exists s, run c (mkState (wait1_stripe :: wait1_stripe :: repeat wait1_stripe n') false) sched = Some s /\
            exists x, nth_error (stripes s) 1 = Some x /\ seen x = Some false).
  { unfold sched. cbn [run]. unfold step. cbn. rewrite forallb_arr1_wait1. cbn.
    rewrite Hdm, Hw2. cbn. rewrite forallb_arr1_wait1. cbn.
    eexists; split; [reflexivity|]. cbn. eexists; split; reflexivity. }
  destruct Hrun as (s & Hs & x & Hx & Hseen).
  exists s, 1, x. split; [|split; auto]. eapply run_reachable; eauto.
Qed.

