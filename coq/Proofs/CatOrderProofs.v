(* C03 (order of the rows) - Model/CatOrder.v: the generated comparison comp_lt is the lexicographic order on
   (island, source), a strict total order; py_sorted (insertion by that comparison alone) returns the one strictly
   ascending permutation of a duplicate-free list, so the result does not depend on the order of the input. *)
From Coq Require Import ZArith Bool List Lia Sorting.Permutation Sorting.Sorted.
From Aegean Require Import Gen.CatOrder Model.CatOrder.
Import ListNotations.
Open Scope Z_scope.

Lemma comp_lt_char i1 s1 i2 s2 : comp_lt i1 s1 i2 s2 = ((i1 <? i2) || ((i1 =? i2) && (s1 <? s2))).
Proof. reflexivity. Qed.
Lemma priorized_output_sorted_char : priorized_output_sorted = true. Proof. reflexivity. Qed.
Lemma comp_lt_spec i1 s1 i2 s2 : comp_lt i1 s1 i2 s2 = true <-> (i1 < i2 \/ (i1 = i2 /\ s1 < s2)).
Proof. rewrite comp_lt_char. rewrite orb_true_iff, andb_true_iff, !Z.ltb_lt, Z.eqb_eq. tauto. Qed.

Lemma klt_spec a b : klt a b = true <-> fst a < fst b \/ (fst a = fst b /\ snd a < snd b).
Proof. apply comp_lt_spec. Qed.
Local Opaque comp_lt.

Lemma klt_strict_total : (forall a, klt a a = false) /\
  (forall a b c, klt a b = true -> klt b c = true -> klt a c = true) /\
  (forall a b, klt a b = true \/ a = b \/ klt b a = true).
Proof.
  split; [|split].
  - intros a. apply not_true_is_false. rewrite klt_spec. lia.
  - intros a b c. rewrite !klt_spec. lia.
  - intros [i s] [j t]. rewrite !klt_spec. cbn [fst snd].
    destruct (Z.lt_trichotomy i j) as [H|[H|H]]; [left; lia| |right; right; lia].
    destruct (Z.lt_trichotomy s t) as [H'|[H'|H']]; [left; lia|right; left; subst; reflexivity|right; right; lia].
Qed.

Lemma insert_perm x l : Permutation (x :: l) (insert x l).
Proof. induction l as [|y t IH]; cbn [insert]; [apply Permutation_refl|].
  destruct (klt x y); [apply Permutation_refl|].
  eapply Permutation_trans; [apply perm_swap|]. apply perm_skip. exact IH. Qed.
Lemma sorted_perm l : Permutation l (py_sorted l).
Proof. induction l as [|x t IH]; cbn [py_sorted fold_right]; [constructor|].
  eapply Permutation_trans; [apply perm_skip; exact IH|]. apply insert_perm. Qed.

Lemma insert_sorted x l : ~ In x l ->
  StronglySorted (fun a b => klt a b = true) l -> StronglySorted (fun a b => klt a b = true) (insert x l).
Proof.
  destruct klt_strict_total as (_ & Htrans & Htotal).
  induction l as [|y t IH]; intros Hx Hs; cbn [insert]; [repeat constructor|].
  inversion Hs as [|? ? Ht Hy]; subst. rewrite Forall_forall in Hy. destruct (klt x y) eqn:E.
  - constructor; [exact Hs|]. constructor; [exact E|].
    rewrite Forall_forall. intros z Hz. exact (Htrans _ _ _ E (Hy z Hz)).
  - assert (klt y x = true) as Hyx.
    { destruct (Htotal x y) as [H|[H|H]]; [congruence|subst; destruct Hx; left; reflexivity|exact H]. }
    constructor; [apply IH; [intro; apply Hx; right; assumption|exact Ht]|].
    rewrite Forall_forall. intros z Hz. apply (Permutation_in _ (Permutation_sym (insert_perm x t))) in Hz.
    destruct Hz as [<-|Hz]; [exact Hyx|exact (Hy z Hz)].
Qed.

Lemma sorted_ascending_perm : forall l, NoDup l ->
  Permutation l (py_sorted l) /\ StronglySorted (fun a b => klt a b = true) (py_sorted l).
Proof.
  intros l Hn. split; [apply sorted_perm|].
  induction Hn as [|x t Hx Hn IH]; cbn [py_sorted fold_right]; [constructor|]. apply insert_sorted; [|exact IH].
  intro H. apply Hx. exact (Permutation_in _ (Permutation_sym (sorted_perm t)) H).
Qed.

Lemma ascending_unique : forall s s',
  StronglySorted (fun a b => klt a b = true) s -> StronglySorted (fun a b => klt a b = true) s' -> Permutation s s' -> s = s'.
Proof.
  destruct klt_strict_total as (Hirrefl & Htrans & _).
  induction s as [|a t IH]; intros s' Hs Hs' Hp.
  - apply Permutation_nil in Hp. subst. reflexivity.
  - destruct s' as [|a' t']; [apply Permutation_sym, Permutation_nil in Hp; discriminate|].
    inversion Hs as [|? ? Ht Ha]; subst. inversion Hs' as [|? ? Ht' Ha']; subst.
    rewrite Forall_forall in Ha, Ha'.
    assert (E : a = a').
    { (* each head occurs in the other list: at its head, or further on and then above it *)
      destruct (Permutation_in a Hp (or_introl eq_refl)) as [E|H1]; [symmetry; exact E|].
      destruct (Permutation_in a' (Permutation_sym Hp) (or_introl eq_refl)) as [E|H2]; [exact E|].
      pose proof (Htrans _ _ _ (Ha _ H2) (Ha' _ H1)) as H. rewrite Hirrefl in H. discriminate H. }
    subst a'. f_equal. apply IH; [exact Ht|exact Ht'|]. exact (Permutation_cons_inv Hp).
Qed.

Lemma ascending_perm_unique : forall l s, NoDup l -> Permutation l s ->
  StronglySorted (fun a b => klt a b = true) s -> s = py_sorted l.
Proof.
  intros l s Hn Hp Hs. apply ascending_unique; [exact Hs|apply sorted_ascending_perm; exact Hn|].
  eapply Permutation_trans; [apply Permutation_sym; exact Hp|apply sorted_perm].
Qed.

Theorem sorted_order_independent : forall l l', NoDup l -> Permutation l l' -> py_sorted l = py_sorted l'.
Proof.
  intros l l' Hn Hp. symmetry. apply ascending_perm_unique; [exact Hn|exact (Permutation_trans Hp (sorted_perm l'))|].
  apply sorted_ascending_perm. exact (Permutation_NoDup Hp Hn).
Qed.

