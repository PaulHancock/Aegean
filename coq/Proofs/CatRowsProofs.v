(* C03 - the catalogue rows of Model/CatalogRows.v, over Z / N / Q / lists (axiom-free).  In this order:
   - the equations of the generated leaves of Gen/CatRows.v, which are opaque after them;
   - numbering: blind_ids, summit_ids / refit_ids, rows_of, and the batching loop of priorized fitting, all as zseq;
   - shape: fix_shape, termination and range of pa_limit (pa_fuel, pa_closed), ra_wrap;
   - flags: everything reachable by `|` from the flag constants stays below 2^7;
   - the decision table of fitting.errors, before its repair (errors_model) and after (errors_model2);
   - the executable predicates row_ok / cat_ok / irow_ok against their specifications (row_spec, cat_spec, irow_spec). *)
From Coq Require Import ZArith NArith QArith Qround Qabs Lqa Bool List Lia Permutation.
From Aegean Require Import Lib.Lists Lib.FVal Gen.CatRows Model.CatalogRows.
Import ListNotations.
Open Scope Z_scope.

Lemma isle_num_step_char n : isle_num_step n = n + 1.
Proof. reflexivity. Qed.
Lemma isle_num_incr_char : isle_num_incr_before_use = true.
Proof. reflexivity. Qed.
Lemma isle_num_init_char : isle_num_init = 0.
Proof. reflexivity. Qed.
Lemma comp_init_char : comp_init = 0.
Proof. reflexivity. Qed.
Lemma comp_step_char i : comp_step i = i + 1.
Proof. reflexivity. Qed.
Lemma refit_comp_init_char : refit_comp_init = 0.
Proof. reflexivity. Qed.
Lemma refit_comp_step_char i : refit_comp_step i = i + 1.
Proof. reflexivity. Qed.
Lemma island_components_char j : island_components j = j + 1.
Proof. reflexivity. Qed.
Lemma group_size_pos : 1 <= group_size.
Proof. unfold group_size. lia. Qed.
Lemma batch_full_char len gs : batch_full len gs = (gs <=? len).
Proof. reflexivity. Qed.
Lemma batch_rest_char len gs : batch_rest len gs = (0 <? len).
Proof. reflexivity. Qed.
Lemma istart_char i gs : istart i gs = i * gs.
Proof. reflexivity. Qed.

Lemma fix_swap_test_char a b : fix_swap_test a b = flt a b.
Proof. reflexivity. Qed.
Lemma fix_pa_step_char pa : fix_pa_step pa = fadd pa (FZ 90).
Proof. reflexivity. Qed.
Lemma pa_up_test_char pa : pa_up_test pa = fle pa (FZ (-90)).
Proof. reflexivity. Qed.
Lemma pa_up_step_char pa : pa_up_step pa = fadd pa (FZ 180).
Proof. reflexivity. Qed.
Lemma pa_down_test_char pa : pa_down_test pa = flt (FZ 90) pa.
Proof. reflexivity. Qed.
Lemma pa_down_step_char pa : pa_down_step pa = fsub pa (FZ 180).
Proof. reflexivity. Qed.
Lemma ra_wrap_test_char ra : ra_wrap_test ra = flt ra (FZ 0).
Proof. reflexivity. Qed.
Lemma ra_wrap_step_char ra : ra_wrap_step ra = fadd ra (FZ 360).
Proof. reflexivity. Qed.

Lemma flag_constants_lt : Forall (fun c => (c < 2 ^ 7)%N) flag_constants.
Proof. repeat constructor. Qed.
Lemma flags_used_documented : incl flags_used flag_constants.
Proof. intros x Hx. unfold flags_used, flag_constants in *. simpl in *. intuition. Qed.
Lemma flag_mask_char : flag_mask = N.ones 7.
Proof. reflexivity. Qed.
Lemma ERR_MASK_char : ERR_MASK = -1.
Proof. reflexivity. Qed.
Lemma errors_early_mask_char : errors_early_mask = N.lor NOTFIT FITERR.
Proof. reflexivity. Qed.
Lemma guard_pos_char v1 v2 f1 f2 : guard_pos v1 v2 f1 f2 = v1 && v2 && f1 && f2.
Proof. apply andb_assoc. Qed.
Lemma guard_pa_char v f : guard_pa v f = v && f.
Proof. reflexivity. Qed.
Lemma guard_shape_char v1 v2 f1 f2 : guard_shape v1 v2 f1 f2 = v1 && v2 && f1 && f2.
Proof. apply andb_assoc. Qed.
Lemma sexa_divs_char :
  dms_scale = 360000 /\ dms_div1 = 360000 /\ dms_div2 = 6000 /\ dms_div3 = 100 /\
  hms_scale = 24000 /\ hms_div1 = 360000 /\ hms_div2 = 6000 /\ hms_div3 = 100.
Proof. repeat split. Qed.

Lemma stderr_none_is_nan_char : stderr_none_is_nan = true.
Proof. reflexivity. Qed.
Lemma six_guarded_char : six_guarded = true.
Proof. reflexivity. Qed.
Lemma int_flux_guarded_char : int_flux_guarded = true.
Proof. reflexivity. Qed.
Lemma copied_errors_guarded_char : copied_errors_guarded = true.
Proof. reflexivity. Qed.

(* the counter, batching, shape and guard leaves are used only through the lemmas above from here on; the flag
   constants (small_flag, tiny_masks, flag_constants) stay transparent and are computed with *)
Local Opaque isle_num_step isle_num_incr_before_use isle_num_init comp_init comp_step refit_comp_init refit_comp_step
  island_components group_size batch_full batch_rest istart fix_swap_test fix_pa_step pa_up_test pa_up_step
  pa_down_test pa_down_step ra_wrap_test ra_wrap_step errors_early_mask guard_pos guard_pa guard_shape
  stderr_none_is_nan six_guarded int_flux_guarded singular_fallback_is_nan copied_errors_guarded.

Lemma zseq_length lo n : length (zseq lo n) = n.
Proof. revert lo; induction n; intros; simpl; auto. Qed.
Lemma In_zseq x lo n : In x (zseq lo n) <-> lo <= x < lo + Z.of_nat n.
Proof.
  revert lo; induction n as [|n IH]; intros lo; simpl.
  - lia.
  - rewrite IH. lia.
Qed.
Lemma zseq_app lo n m : zseq lo (n + m) = zseq lo n ++ zseq (lo + Z.of_nat n) m.
Proof.
  revert lo; induction n as [|n IH]; intros lo.
  - simpl. f_equal. lia.
  - cbn [Nat.add zseq app]. rewrite IH. do 3 f_equal. lia.
Qed.
Lemma zseq_NoDup lo n : NoDup (zseq lo n).
Proof.
  revert lo; induction n as [|n IH]; intros lo; simpl; constructor; auto.
  rewrite In_zseq. lia.
Qed.

Definition count_true (l : list bool) : nat := length (filter (fun b => b) l).

Lemma blind_ids_from_spec l : forall n, blind_ids_from n l = zseq (n + 1) (count_true l).
Proof.
  induction l as [|b l IH]; intros n; [reflexivity|].
  destruct b; cbn [blind_ids_from count_true filter length].
  - rewrite isle_num_incr_char, isle_num_step_char. cbn [zseq]. f_equal. rewrite IH. reflexivity.
  - apply IH.
Qed.

Lemma blind_ids_spec l : blind_ids l = zseq 1 (count_true l).
Proof. unfold blind_ids. rewrite blind_ids_from_spec, isle_num_init_char. reflexivity. Qed.
Lemma blind_ids_unique l : NoDup (blind_ids l).
Proof. rewrite blind_ids_spec. apply zseq_NoDup. Qed.

Lemma summit_ids_from_spec l : forall i,
  summit_ids_from i l = (zseq i (count_true l), i + Z.of_nat (count_true l)).
Proof.
  unfold count_true. induction l as [|[] l IH]; intros i; cbn [summit_ids_from filter length zseq].
  - f_equal. lia.
  - rewrite IH, comp_step_char. cbn [fst snd]. f_equal. lia.
  - apply IH.
Qed.

(* skipped summits leave no holes: the prefixes used are c0_, ..., c(n-1)_ with n = number of accepted
   summits = the stored `components`, which is what result_to_components iterates over *)
Lemma components_contiguous acc :
  snd (summit_ids acc) = Z.of_nat (count_true acc) /\
  fst (summit_ids acc) = component_numbers (snd (summit_ids acc)).
Proof.
  unfold summit_ids. rewrite summit_ids_from_spec, comp_init_char. cbn [fst snd]. split; [lia|].
  unfold component_numbers. rewrite Z.add_0_l, Nat2Z.id. reflexivity.
Qed.
(* refitting numbers its components with a counter of its own (refit_comp_init, refit_comp_step): the same counter *)
Lemma refit_ids_from_eq l : forall i, refit_ids_from i l = summit_ids_from i l.
Proof.
  induction l as [|[] l IH]; intros i; cbn [refit_ids_from summit_ids_from].
  - reflexivity.
  - rewrite refit_comp_step_char, comp_step_char, IH. reflexivity.
  - apply IH.
Qed.
Lemma refit_ids_eq l : refit_ids l = summit_ids l.
Proof. unfold refit_ids, summit_ids. rewrite refit_comp_init_char, comp_init_char. apply refit_ids_from_eq. Qed.
Lemma In_component_numbers j n : In j (component_numbers n) <-> 0 <= j < n.
Proof. unfold component_numbers. rewrite In_zseq. lia. Qed.

Lemma In_rows_of l i j : In (i, j) (rows_of l) <-> exists n, In (i, n) l /\ 0 <= j < n.
Proof.
  unfold rows_of. rewrite in_flat_map. setoid_rewrite in_map_iff. setoid_rewrite In_component_numbers. split.
  - intros [[i' n] [Hin [j' [[= -> ->] Hj]]]]. eauto.
  - intros [n [Hin Hj]]. exists (i, n). eauto.
Qed.

Lemma rows_of_NoDup l : NoDup (map fst l) -> NoDup (rows_of l).
Proof.
  induction l as [|[i n] l IH]; intros Hnd; [constructor|].
  cbn [map fst] in Hnd. inversion Hnd as [|? ? Hi Hnd']; subst.
  unfold rows_of. cbn [flat_map fst snd]. apply NoDup_app_intro.
  - apply FinFun.Injective_map_NoDup; [intros x y [=]; assumption|apply zseq_NoDup].
  - apply IH; auto.
  - intros [i' j] Hin Hin'. apply in_map_iff in Hin. destruct Hin as [j' [[= -> ->] _]].
    apply In_rows_of in Hin'. destruct Hin' as [m [Hm _]]. apply Hi. exact (in_map fst l (i', m) Hm).
Qed.

Lemma rows_of_numbered l i n : NoDup (map fst l) -> In (i, n) l ->
  forall j, In (i, j) (rows_of l) <-> 0 <= j < n.
Proof.
  intros Hnd Hin j. rewrite In_rows_of. split; [|eauto].
  intros [m [Hm Hj]]. assert ((i, m) = (i, n)) as [= ->] by (apply (NoDup_map_inj fst l); auto). exact Hj.
Qed.
Lemma rows_of_contiguous l i j : In (i, j) (rows_of l) -> 0 <= j /\ (0 < j -> In (i, j - 1) (rows_of l)).
Proof.
  rewrite In_rows_of. intros [n [Hin Hj]]. split; [lia|]. intros Hp. apply In_rows_of. exists n. split; auto. lia.
Qed.

Lemma blind_rows_unique isl : NoDup (blind_rows isl).
Proof.
  unfold blind_rows, blind_islands. apply rows_of_NoDup. apply NoDup_map_fst_combine. apply blind_ids_unique.
Qed.

(* the statement of the property for the istart leaf: batch g, position k < group size *)
Lemma istart_injective gs g g' k k' : 0 < gs -> 0 <= k < gs -> 0 <= k' < gs ->
  istart g gs + k = istart g' gs + k' -> g = g' /\ k = k'.
Proof.
  rewrite !istart_char, !(Z.mul_comm _ gs). intros _ Hk Hk'. apply Z.div_mod_unique; left; assumption.
Qed.

Section Batches.
  Context {A : Type}.
  Variable gsn : nat.
  Hypothesis gsn_pos : (1 <= gsn)%nat.
  Let gs := Z.of_nat gsn.

  Definition ids_from (k : Z) (bs : list (list A)) : list Z :=
    flat_map (fun ib => zseq (istart (fst ib) gs) (length (snd ib))) (combine (zseq k (length bs)) bs).

  Lemma ids_from_cons k b bs : ids_from k (b :: bs) = zseq (istart k gs) (length b) ++ ids_from (k + 1) bs.
  Proof. reflexivity. Qed.
  Lemma ids_from_snoc k bs c :
    ids_from k (bs ++ [c]) = ids_from k bs ++ zseq ((k + Z.of_nat (length bs)) * gs) (length c).
  Proof.
    revert k; induction bs as [|b bs IH]; intros k.
    - cbn [app length Z.of_nat]. rewrite Z.add_0_r, ids_from_cons, istart_char. apply app_nil_r.
    - cbn [app]. rewrite !ids_from_cons, IH, <- app_assoc.
      replace (k + 1 + Z.of_nat (length bs)) with (k + Z.of_nat (length (b :: bs))) by (cbn [length]; lia). reflexivity.
  Qed.

  (* the batches already closed keep their numbers; the open one and the groups still to come get the next ones *)
  Lemma batch_loop_ids (groups : list A) : forall cur done, (length cur < gsn)%nat ->
    ids_from 0 (batch_loop gs groups cur done)
    = ids_from 0 done ++ zseq (Z.of_nat (length done) * gs) (length cur + length groups).
  Proof.
    induction groups as [|x t IH]; intros cur done Hc; cbn [batch_loop].
    - rewrite batch_rest_char, Nat.add_0_r. destruct (Z.ltb_spec 0 (Z.of_nat (length cur))) as [E|E].
      + apply ids_from_snoc.
      + destruct cur; [|cbn [length] in E; lia]. symmetry. apply app_nil_r.
    - rewrite batch_full_char, last_length. fold gs.
      destruct (Z.leb_spec gs (Z.of_nat (S (length cur)))) as [E|E]; unfold gs in E; rewrite IH.
      + (* the batch is full: gsn numbers for it, then the rest *)
        rewrite ids_from_snoc, <- app_assoc, !last_length. f_equal. cbn [length Nat.add].
        replace (length cur + S (length t))%nat with (S (length cur) + length t)%nat by lia.
        rewrite zseq_app. f_equal; f_equal; unfold gs; nia.
      + cbn [length]. lia.
      + rewrite last_length. do 2 f_equal. cbn [length]. lia.
      + rewrite last_length. lia.
  Qed.

  Lemma priorized_ids_with_spec (groups : list A) :
    priorized_ids_with istart gs groups = zseq 0 (length groups).
  Proof. exact (batch_loop_ids groups [] [] gsn_pos). Qed.
End Batches.

Lemma priorized_ids_spec {A} (groups : list A) : priorized_ids groups = zseq 0 (length groups).
Proof.
  unfold priorized_ids. pose proof group_size_pos as H.
  replace group_size with (Z.of_nat (Z.to_nat group_size)) by lia.
  apply priorized_ids_with_spec. lia.
Qed.
Lemma priorized_ids_unique {A} (groups : list A) : NoDup (priorized_ids groups).
Proof. rewrite priorized_ids_spec. apply zseq_NoDup. Qed.

Lemma keep_fitted_fst_incl l x : In x (map fst (keep_fitted l)) -> In x (map fst l).
Proof.
  induction l as [|[i [n|]] l IH]; cbn [keep_fitted flat_map map fst snd app]; auto.
  - intros [H|H]; [left; auto|right; auto].
  - intros H. right; auto.
Qed.
Lemma keep_fitted_NoDup l : NoDup (map fst l) -> NoDup (map fst (keep_fitted l)).
Proof.
  induction l as [|[i [n|]] l IH]; cbn [keep_fitted flat_map map fst snd app]; intros H; auto.
  - inversion H; subst. constructor; auto. intro Hin. apply keep_fitted_fst_incl in Hin. auto.
  - inversion H; subst. auto.
Qed.

(* priorized catalogue: pairs unique for any number of groups, skipped groups included *)
Lemma priorized_rows_unique groups : NoDup (priorized_rows groups).
Proof.
  unfold priorized_rows, priorized_islands_with. apply rows_of_NoDup. apply keep_fitted_NoDup.
  apply NoDup_map_fst_combine. apply (priorized_ids_unique groups).
Qed.

Open Scope Q_scope.

Lemma fix_shape_fin a b pa ea eb :
  exists a' b' pa' ea' eb',
    fix_shape (mkShape (Fin a) (Fin b) (Fin pa) ea eb) = mkShape (Fin a') (Fin b') (Fin pa') ea' eb' /\
    b' <= a' /\
    ((a < b /\ a' = b /\ b' = a /\ pa' = pa + inject_Z 90 /\ ea' = eb /\ eb' = ea) \/
     (b <= a /\ a' = a /\ b' = b /\ pa' = pa /\ ea' = ea /\ eb' = eb)).
Proof.
  unfold fix_shape. cbn [s_a s_b s_pa s_ea s_eb]. rewrite fix_swap_test_char, fix_pa_step_char.
  destruct (flt (Fin a) (Fin b)) eqn:E; do 5 eexists; (split; [reflexivity|]).
  - apply flt_fin in E. split; [apply Qlt_le_weak; exact E|]. left. repeat split; auto.
  - apply flt_fin_false in E. split; [exact E|]. right. repeat split; auto.
Qed.
(* NaN axes are left alone (every comparison with NaN is false) *)
Lemma fix_shape_nan b pa ea eb : fix_shape (mkShape NaN b pa ea eb) = mkShape NaN b pa ea eb.
Proof. unfold fix_shape. cbn [s_a s_b]. rewrite fix_swap_test_char. reflexivity. Qed.

Lemma pa_up_eq n pa :
  pa_up n pa = if fle pa (FZ (-90)) then match n with O => None | S f => pa_up f (fadd pa (FZ 180)) end else Some pa.
Proof. destruct n; cbn [pa_up]; rewrite pa_up_test_char, ?pa_up_step_char; reflexivity. Qed.
Lemma pa_down_eq n pa :
  pa_down n pa = if flt (FZ 90) pa then match n with O => None | S f => pa_down f (fsub pa (FZ 180)) end else Some pa.
Proof. destruct n; cbn [pa_down]; rewrite pa_down_test_char, ?pa_down_step_char; reflexivity. Qed.

(* a loop `while test pa: pa += d` with explicit fuel, on a finite value whose test T is false n steps on: it
   stops after some j steps, at a value reached by a step from one where the test held unless j = 0 *)
Section FiniteLoop.
  Variables (loop : nat -> fval -> option fval) (test : fval -> bool) (step : fval -> fval) (d : Q) (T : Q -> Prop).
  Hypothesis loop_eq : forall n pa,
    loop n pa = if test pa then match n with O => None | S f => loop f (step pa) end else Some pa.
  Hypothesis step_fin : forall q, step (Fin q) = Fin (q + d).
  Hypothesis test_fin : forall q, test (Fin q) = true <-> T q.
  Hypothesis T_proper : forall q q', q == q' -> T q -> T q'.

  Lemma loop_fin n : forall q, ~ T (q + d * inject_Z (Z.of_nat n)) ->
    exists r j, loop n (Fin q) = Some (Fin r) /\ r == q + d * inject_Z j /\ ~ T r /\
                (r = q \/ exists q', r = q' + d /\ T q').
  Proof.
    induction n as [|n IH]; intros q Hq; rewrite loop_eq; destruct (test (Fin q)) eqn:E.
    (* the test fails at once: no step *)
    2, 4: exists q, 0%Z; rewrite <- test_fin, E; repeat split; [unfold inject_Z; ring|discriminate|left; reflexivity].
    - apply test_fin in E. destruct Hq. revert E. apply T_proper. unfold inject_Z, Z.of_nat. ring.
    - apply test_fin in E. rewrite step_fin. destruct (IH (q + d)) as (r & j & E1 & E2 & E3 & E4).
      + intros H. apply Hq. revert H. apply T_proper. rewrite Nat2Z.inj_succ. unfold Z.succ. rewrite inject_Z_plus.
        change (inject_Z 1) with 1. ring.
      + exists r, (j + 1)%Z. split; [exact E1|]. split; [rewrite E2, inject_Z_plus; change (inject_Z 1) with 1; ring|].
        split; [exact E3|]. right. destruct E4 as [-> | E4]; [exists q; split; [reflexivity|exact E]|exact E4].
  Qed.
End FiniteLoop.

Lemma pa_up_fin n q : -(90) < q + 180 * inject_Z (Z.of_nat n) ->
  exists r j, pa_up n (Fin q) = Some (Fin r) /\ r == q + 180 * inject_Z j /\ -(90) < r /\ (r = q \/ r <= 90).
Proof.
  intros H.
  destruct (loop_fin pa_up _ _ 180 (fun x => x <= -(90)) pa_up_eq (fun _ => eq_refl) (fun x => fle_fin x _))
    with (n := n) (q := q) as (r & j & E & Hr & Ht & Hl).
  - intros x y Hxy. rewrite Hxy. trivial.
  - lra.
  - exists r, j. repeat split; [exact E|exact Hr|lra|]. destruct Hl as [-> | (q' & -> & Hq')]; [left; reflexivity|right; lra].
Qed.
Lemma pa_down_fin n q : q - 180 * inject_Z (Z.of_nat n) <= 90 ->
  exists r j, pa_down n (Fin q) = Some (Fin r) /\ r == q - 180 * inject_Z j /\ r <= 90 /\ (r = q \/ -(90) < r).
Proof.
  intros H.
  destruct (loop_fin pa_down _ _ (-(180)) (fun x => 90 < x) pa_down_eq (fun _ => eq_refl) (fun x => flt_fin _ x))
    with (n := n) (q := q) as (r & j & E & Hr & Ht & Hl).
  - intros x y Hxy. rewrite Hxy. trivial.
  - lra.
  - exists r, j. repeat split; [exact E|lra|lra|]. destruct Hl as [-> | (q' & -> & Hq')]; [left; reflexivity|right; lra].
Qed.

Lemma pa_turns_bounds q : q - 180 * inject_Z (pa_turns q) <= 90 /\ -(90) < q - 180 * inject_Z (pa_turns q).
Proof.
  unfold pa_turns. pose proof (Qle_ceiling ((q - 90) / 180)) as H1.
  pose proof (Qceiling_lt ((q - 90) / 180)) as H2.
  assert (E: (q - 90) / 180 * 180 == q - 90) by field.
  unfold Z.sub in H2. rewrite inject_Z_plus, inject_Z_opp in H2. change (inject_Z 1) with 1 in H2.
  generalize dependent ((q - 90) / 180). intros X. generalize (inject_Z (Qceiling X)). intros T H1 H2 E.
  split; lra.
Qed.
Lemma pa_closed_range q : -(90) < pa_closed q /\ pa_closed q <= 90.
Proof. unfold pa_closed. destruct (pa_turns_bounds q). split; assumption. Qed.

Lemma int_between_m1_1 m : -(1) < inject_Z m -> inject_Z m < 1 -> m = 0%Z.
Proof.
  intros H H0. change (-(1)) with (inject_Z (-1)) in H. change 1 with (inject_Z 1) in H0.
  rewrite <- Zlt_Qlt in H, H0. lia.
Qed.
Lemma pa_closed_unique q r k : r == q + 180 * inject_Z k -> -(90) < r -> r <= 90 -> r == pa_closed q.
Proof.
  intros E H1 H2. destruct (pa_closed_range q) as [H3 H4]. unfold pa_closed in *.
  assert (k = - pa_turns q)%Z as ->.
  { enough (k + pa_turns q = 0)%Z by lia. apply int_between_m1_1; rewrite inject_Z_plus; lra. }
  rewrite inject_Z_opp in E. lra.
Qed.

Lemma pa_fuel_enough q n : (pa_fuel q <= n)%nat ->
  -(90) < q + 180 * inject_Z (Z.of_nat n) /\ q - 180 * inject_Z (Z.of_nat n) <= 90.
Proof.
  unfold pa_fuel. intros Hn. destruct (pa_turns_bounds q) as [H1 H2].
  set (t := pa_turns q) in *.
  assert (t <= Z.of_nat n /\ - t <= Z.of_nat n)%Z as [Ha Hb] by lia.
  rewrite Zle_Qle in Ha, Hb. rewrite inject_Z_opp in Hb. split; lra.
Qed.

(* pa_limit terminates on every finite input within pa_fuel q iterations per loop and returns the
   representative of pa modulo 180 in (-90, 90] *)
Lemma pa_limit_fin q n : (pa_fuel q <= n)%nat ->
  exists r, pa_limit_fuel n (Fin q) = Some (Fin r) /\ -(90) < r /\ r <= 90 /\ r == pa_closed q.
Proof.
  intros Hn. destruct (pa_fuel_enough q n Hn) as [Hu Hd]. unfold pa_limit_fuel.
  destruct (pa_up_fin n q Hu) as (r1 & j1 & -> & Q1 & L1 & A1).
  assert (0 <= inject_Z (Z.of_nat n)) as Hn0 by (change 0 with (inject_Z 0); rewrite <- Zle_Qle; lia).
  destruct (pa_down_fin n r1) as (r2 & j2 & E2 & Q2 & L2 & A2); [destruct A1 as [-> | A1]; lra|].
  assert (-(90) < r2) as Hlo by (destruct A2 as [-> | A2]; lra).
  exists r2. split; [exact E2|]. split; [exact Hlo|]. split; [exact L2|].
  apply (pa_closed_unique q r2 (j1 - j2)); auto. unfold Z.sub. rewrite inject_Z_plus, inject_Z_opp. lra.
Qed.
(* without enough fuel the loops do not finish: the bound is not slack by more than one *)
Lemma pa_limit_no_fuel q : q <= -(90) \/ 90 < q -> pa_limit_fuel 0 (Fin q) = None.
Proof.
  intros [H|H]; unfold pa_limit_fuel; rewrite pa_up_eq; unfold FZ.
  - rewrite (proj2 (fle_fin q (inject_Z (-90))) H). reflexivity.
  - rewrite (proj2 (fle_fin_false _ _)) by (change (inject_Z (-90)) with (-(90)); lra).
    rewrite pa_down_eq. unfold FZ. rewrite (proj2 (flt_fin (inject_Z 90) q) H). reflexivity.
Qed.
(* infinities: the loop condition stays true for ever; NaN: both conditions are false *)
Lemma pa_limit_inf n : pa_limit_fuel n PInf = None /\ pa_limit_fuel n NInf = None /\ pa_limit_fuel n NaN = Some NaN.
Proof.
  unfold pa_limit_fuel. split; [|split].
  - rewrite pa_up_eq. cbn [fle FZ]. induction n as [|n IH]; rewrite pa_down_eq; [reflexivity|exact IH].
  - assert (pa_up n NInf = None) as -> by (induction n as [|n IH]; rewrite pa_up_eq; [reflexivity|exact IH]).
    reflexivity.
  - rewrite pa_up_eq. cbn [fle FZ]. rewrite pa_down_eq. reflexivity.
Qed.

Lemma ra_wrap_range q : -(360) <= q -> q < 360 ->
  exists r, ra_wrap (Fin q) = Fin r /\ 0 <= r /\ r < 360 /\ (r == q \/ r == q + 360).
Proof.
  intros H1 H2. unfold ra_wrap. rewrite ra_wrap_test_char, ra_wrap_step_char.
  destruct (flt (Fin q) (FZ 0)) eqn:E; eexists; (split; [reflexivity|]).
  - apply flt_fin in E. change (inject_Z 0) with 0 in E. change (inject_Z 360) with 360.
    split; [lra|]. split; [lra|]. right. reflexivity.
  - apply flt_fin_false in E. change (inject_Z 0) with 0 in E. split; [lra|]. split; [lra|]. left. reflexivity.
Qed.

Close Scope Q_scope.

(* below 2^n = nothing left after dropping n bits, which `|` preserves *)
Lemma lt_pow2_shiftr n a : (a < 2 ^ n)%N <-> N.shiftr a n = 0%N.
Proof. rewrite N.shiftr_div_pow2. symmetry. apply N.div_small_iff. apply N.pow_nonzero. discriminate. Qed.
Lemma lor_lt_pow2 n a b : (a < 2 ^ n)%N -> (b < 2 ^ n)%N -> (N.lor a b < 2 ^ n)%N.
Proof. rewrite !lt_pow2_shiftr, N.shiftr_lor. intros -> ->. reflexivity. Qed.
Lemma lt_pow2_bits n f : (f < 2 ^ n)%N -> N.land f (N.ones n) = f /\ forall k, (n <= k)%N -> N.testbit f k = false.
Proof.
  intros H.
  assert (N.land f (N.ones n) = f) as E.
  { rewrite N.land_ones. apply N.mod_small. exact H. }
  split; [exact E|]. intros k Hk. rewrite <- E, N.land_spec, (N.ones_spec_high n k Hk). apply andb_false_r.
Qed.

(* every value a flag variable can take: 0, a constant of flags.py, a value read from the input
   catalogue (priorized fitting passes src.flags on), or the `|` of two such values *)
Inductive reach (input : N -> Prop) : N -> Prop :=
| reach_zero : reach input 0%N
| reach_const c : In c flag_constants -> reach input c
| reach_input x : input x -> reach input x
| reach_or x y : reach input x -> reach input y -> reach input (N.lor x y).

Lemma flags_seven_bits (input : N -> Prop) : (forall x, input x -> (x < 128)%N) ->
  forall f, reach input f ->
    flags_ok f = true /\ N.land f flag_mask = f /\ forall k, (7 <= k)%N -> N.testbit f k = false.
Proof.
  intros Hin f Hr. change 128%N with (2 ^ 7)%N in Hin.
  assert (f < 2 ^ 7)%N as Hlt.
  { induction Hr as [|c Hc|x Hx|x y _ IHx _ IHy].
    - reflexivity.
    - pose proof flag_constants_lt as Hall. rewrite Forall_forall in Hall. apply Hall. exact Hc.
    - apply Hin. exact Hx.
    - apply lor_lt_pow2; assumption. }
  split; [apply N.ltb_lt; exact Hlt|]. rewrite flag_mask_char. apply lt_pow2_bits. exact Hlt.
Qed.

Lemma small_flag_char npix : small_flag npix = 0%N \/ In (small_flag npix) flag_constants.
Proof.
  unfold small_flag. destruct ((4 <=? npix) && (npix <=? 6)); [right; simpl; tauto|].
  destruct (npix <? 4); [right; simpl; tauto|left; reflexivity].
Qed.
Lemma blind_flags_reach npix mindim ncomp : reach (fun _ => False) (blind_flags npix mindim ncomp).
Proof.
  unfold blind_flags.
  assert (reach (fun _ => False) (small_flag npix)) as H0.
  { destruct (small_flag_char npix) as [->|H]; [apply reach_zero|apply reach_const; exact H]. }
  assert (reach (fun _ => False) FIXED2PSF) as H1 by (apply reach_const; simpl; tauto).
  assert (reach (fun _ => False) NOTFIT) as H2 by (apply reach_const; simpl; tauto).
  destruct (tiny_dim mindim || existsb (has (small_flag npix)) tiny_masks);
    match goal with |- context [if ?c then _ else _] => destruct c end;
    repeat apply reach_or; assumption.
Qed.

Definition stderr_ok (c : cls) : bool := match c with Pos | CNan | CPInf | CNInf => true | _ => false end.

Lemma current_guards_char :
  g_early current_guards = N.lor NOTFIT FITERR /\
  (forall a b c d, g_pos current_guards a b c d = a && b && c && d) /\
  (forall a b, g_pa current_guards a b = a && b) /\
  (forall a b c d, g_shape current_guards a b c d = a && b && c && d).
Proof.
  unfold current_guards. cbn [g_early g_pos g_pa g_shape]. rewrite errors_early_mask_char.
  split; [reflexivity|]. split; [intros; apply guard_pos_char|]. split; [intros; apply guard_pa_char|].
  intros; apply guard_shape_char.
Qed.

(* fitting.errors is modelled twice in Model/CatalogRows.v: errors_model is the table as it was before its repair in
   /repo (Refuted/C03_errors.v shows what it lets through), errors_model2 the table of the present code.  Both read
   the generated guards (current_guards) and start with the same two tests *)
Lemma early_masked (early ref : bool) (rest : option err_out) : early = true \/ ref = false ->
  exists w, (if early then Some (all_masked false) else if negb ref then Some (all_masked true) else rest)
            = Some (all_masked w).
Proof. intros [-> | ->]; [|destruct early]; eexists; reflexivity. Qed.
(* not fitted / failed fits and bad reference positions: everything is masked, whatever the stderr are *)
Lemma errors_model_with_early g i : has (ei_flags i) (g_early g) = true \/ ei_ref_finite i = false ->
  exists w, errors_model_with g i = Some (all_masked w).
Proof. unfold errors_model_with. apply early_masked. Qed.
Lemma errors_model2_with_early g cfg i pv : has (ei_flags i) (g_early g) = true \/ ei_ref_finite i = false ->
  exists w, errors_model2_with g cfg i pv = Some (all_masked w).
Proof. unfold errors_model2_with. cbn [conv_in ei_flags ei_ref_finite]. apply early_masked. Qed.

(* the shape shared by the position and the axes entries of both tables: with both parameters varying the guard
   gd sees the two finiteness tests, otherwise it sees the vary bits *)
Definition guarded_entry {T} (gd : bool -> bool -> bool -> bool -> bool) (v1 v2 : bool) (a b : cls) (X X' Y : T) : option T :=
  if v1 && v2
  then match fin2 a b with None => None | Some (fx, fy) => Some (if gd true true fx fy then X else Y) end
  else Some (if gd v1 v2 true true then X' else Y).
Lemma guarded_entry_ok {T} (ok : T -> Prop) gd v1 v2 a b (X X' Y : T) :
  ok Y -> (gd v1 v2 true true = true -> ok X') ->
  (v1 = true -> v2 = true -> exists x y, fin2 a b = Some (x, y) /\ (gd true true x y = true -> ok X)) ->
  exists r, guarded_entry gd v1 v2 a b X X' Y = Some r /\ ok r.
Proof.
  intros HY HX' H. unfold guarded_entry. destruct v1, v2; cbn [andb].
  1: { destruct (H eq_refl eq_refl) as (x & y & -> & HX). destruct (gd true true x y); eauto. }
  all: destruct (gd _ _ true true); eauto.
Qed.
(* errors_model: the guard is the conjunction, and a standard error the fit can leave is finite only when positive *)
Lemma guarded_stderr_ok {T} (ok : T -> Prop) gd v1 v2 a b (X X' Y : T) :
  (forall p q r s, gd p q r s = p && q && r && s) ->
  (v1 = true -> v2 = true -> stderr_ok a = true /\ stderr_ok b = true) ->
  ok Y -> ok X' -> (a = Pos -> b = Pos -> ok X) ->
  exists r, guarded_entry gd v1 v2 a b X X' Y = Some r /\ ok r.
Proof.
  intros Hgd H HY HX' HX. apply guarded_entry_ok; auto. intros V1 V2. destruct (H V1 V2) as [Ha Hb].
  destruct a, b; try discriminate; do 2 eexists; (split; [reflexivity|]); rewrite Hgd; try discriminate; auto.
Qed.
(* errors_model2: any guard, any float *)
Lemma guarded_float2 gd v1 v2 a b x y :
  is_float a = true -> is_float b = true -> is_float x = true -> is_float y = true ->
  exists x' y', guarded_entry gd v1 v2 a b (x, y) (x, y) (MinusOne, MinusOne) = Some (x', y') /\
                is_float x' = true /\ is_float y' = true.
Proof.
  intros Ha Hb Hx Hy.
  destruct (guarded_entry_ok (fun p => is_float (fst p) = true /\ is_float (snd p) = true) gd v1 v2 a b
              (x, y) (x, y) (MinusOne, MinusOne)) as [[x' y'] [E Hok]]; [split; reflexivity|split; assumption| |eauto].
  intros _ _. destruct a, b; try discriminate; do 2 eexists; (split; [reflexivity|split; assumption]).
Qed.

Lemma err_out_ok_intro p r d t a b e w :
  err_cls_ok p = true -> err_cls_ok r = true -> err_cls_ok d = true -> err_cls_ok t = true ->
  err_cls_ok a = true -> err_cls_ok b = true -> err_cls_ok e = true -> err_out_ok (mkErrOut p r d t a b e w) = true.
Proof.
  unfold err_out_ok, err_out_list. cbn [forallb eo_peak eo_ra eo_dec eo_pa eo_a eo_b eo_int].
  intros -> -> -> -> -> -> ->. reflexivity.
Qed.

(* errors_model, the table before the repair: it keeps its promise only under the hypotheses of errors_masked_current *)
Lemma pos_cls_ok g i : (forall a b c d, g_pos g a b c d = a && b && c && d) ->
  (ei_v_xo i = true -> ei_v_yo i = true -> stderr_ok (ei_xo i) = true /\ stderr_ok (ei_yo i) = true) ->
  exists p, pos_cls g i = Some p /\ err_cls_ok p = true.
Proof.
  intros Hg H. apply (guarded_stderr_ok (fun p => err_cls_ok p = true) _ _ _ _ _ _ _ _ Hg H); try reflexivity.
  intros -> ->. reflexivity.
Qed.
Lemma ab_cls_ok g i : (forall a b c d, g_shape g a b c d = a && b && c && d) ->
  (ei_v_sx i = true -> ei_v_sy i = true -> stderr_ok (ei_sx i) = true /\ stderr_ok (ei_sy i) = true) ->
  exists ea eb, ab_cls g i = Some (ea, eb) /\ err_cls_ok ea = true /\ err_cls_ok eb = true.
Proof.
  intros Hg H.
  destruct (guarded_stderr_ok (fun p => err_cls_ok (fst p) = true /\ err_cls_ok (snd p) = true) _ _ _ _ _
              (dist_cls [ei_sx i], dist_cls [ei_sy i]) (Pos, Pos) (MinusOne, MinusOne) Hg H) as [[ea eb] [E Hok]];
    [split; reflexivity|split; reflexivity|intros -> ->; split; reflexivity|eauto].
Qed.
Lemma pa_cls_ok g i : (forall a b, g_pa g a b = a && b) ->
  (ei_v_theta i = true -> stderr_ok (ei_theta i) = true) ->
  exists p, pa_cls g i = Some p /\ err_cls_ok p = true.
Proof.
  intros Hg. unfold pa_cls. destruct (ei_v_theta i); intros H; rewrite ?Hg; cbn [andb]; try (eexists; split; reflexivity).
  specialize (H eq_refl). destruct (ei_theta i); try discriminate; cbn [cls_isfinite]; rewrite ?Hg;
    eexists; split; reflexivity.
Qed.
Lemma sq_term_ok e den : err_cls_ok e = true -> nonzero_finite den = true ->
  exists t, sq_term e den = Some t /\ (t = Zero \/ t = Pos).
Proof. destruct e; try discriminate; destruct den; try discriminate; eexists; (split; [reflexivity|]); auto. Qed.
Lemma sq_sum3_ok t1 t2 t3 : t1 = Zero \/ t1 = Pos -> t2 = Zero \/ t2 = Pos -> t3 = Zero \/ t3 = Pos ->
  sq_sum [t1; t2; t3] = Zero \/ sq_sum [t1; t2; t3] = Pos.
Proof. intros [-> | ->] [-> | ->] [-> | ->]; cbn [sq_sum existsb cls_eqb orb]; auto. Qed.

(* every err_* is positive-finite or exactly -1 when: the amplitude stderr is positive-finite, the
   stderr of every parameter the guards look at is positive-finite or non-finite, and peak, a, b,
   int_flux are finite and non-zero *)
Lemma errors_masked_current i :
  ei_amp i = Pos ->
  (ei_v_xo i = true -> ei_v_yo i = true -> stderr_ok (ei_xo i) = true /\ stderr_ok (ei_yo i) = true) ->
  (ei_v_theta i = true -> stderr_ok (ei_theta i) = true) ->
  (ei_v_sx i = true -> ei_v_sy i = true -> stderr_ok (ei_sx i) = true /\ stderr_ok (ei_sy i) = true) ->
  nonzero_finite (ei_peak i) = true -> nonzero_finite (ei_a i) = true ->
  nonzero_finite (ei_b i) = true -> nonzero_finite (ei_int i) = true ->
  exists o, errors_model i = Some o /\ err_out_ok o = true.
Proof.
  intros Hamp Hxy Hth Hs H1 H2 H3 H4. destruct current_guards_char as (_ & Gpos & Gpa & Gshape).
  unfold errors_model, errors_model_with.
  destruct (has (ei_flags i) (g_early current_guards)); [eexists; split; reflexivity|].
  destruct (negb (ei_ref_finite i)); [eexists; split; reflexivity|].
  destruct (pos_cls_ok _ i Gpos Hxy) as [p [-> Hp]]. destruct (pa_cls_ok _ i Gpa Hth) as [t [-> Ht]].
  destruct (ab_cls_ok _ i Gshape Hs) as [ea [eb [-> [Ha Hb]]]].
  unfold finish_cls. rewrite Hamp.
  destruct (sq_term_ok Pos _ eq_refl H1) as [t1 [-> Z1]].
  destruct (sq_term_ok _ _ Ha H2) as [t2 [-> Z2]].
  destruct (sq_term_ok _ _ Hb H3) as [t3 [-> Z3]].
  (* the three relative errors are 0 or positive-finite, and so is their sum *)
  destruct (sq_sum3_ok t1 t2 t3 Z1 Z2 Z3) as [-> | ->].
  - (* 0: err_int_flux = -1 *)
    eexists. split; [reflexivity|]. apply err_out_ok_intro; auto.
  - (* positive: times int_flux, which is finite and not 0 *)
    destruct (ei_int i); try discriminate H4; (eexists; split; [reflexivity|]); apply err_out_ok_intro; auto.
Qed.
Lemma errors_masked_when_not_fitted i :
  has (ei_flags i) (N.lor NOTFIT FITERR) = true \/ ei_ref_finite i = false ->
  exists w, errors_model i = Some (all_masked w).
Proof. destruct current_guards_char as [<- _]. apply errors_model_with_early. Qed.

(* errors_model2, the table of the present code: every err_* is positive-finite or -1 on the full input domain *)
Lemma mask_cls_ok c : is_float c = true -> exists m, mask_cls c = Some m /\ err_cls_ok m = true.
Proof. destruct c; intros H; try discriminate; eexists; split; reflexivity. Qed.
Lemma none_to_nan_float c : is_float (none_to_nan c) = true.
Proof. destruct c; reflexivity. Qed.

Section ErrorsTable2.
  Variable g : err_guards.
  Let cfg := mkErrCfg true true true.

  Lemma pa2_cls_float i pv : is_float (ei_theta i) = true -> is_float (pp_pa pv) = true ->
    exists a, pa2_cls g i pv = Some a /\ is_float a = true.
  Proof.
    intros H1 H2. unfold pa2_cls. destruct (ei_v_theta i).
    - destruct (ei_theta i); try discriminate; cbn [cls_isfinite];
        match goal with |- context [if ?c then _ else _] => destruct c end; eexists; eauto.
    - destruct (g_pa g false true); eexists; eauto.
  Qed.

  Lemma sq_term2_some e den : err_cls_ok e = true -> is_nonzero_float den = true -> exists t, sq_term2 e den = Some t.
  Proof. destruct e; try discriminate; destruct den; try discriminate; eexists; reflexivity. Qed.
  Lemma raw_int_float s x : is_float x = true -> exists r, raw_int s x = Some r /\ is_float r = true.
  Proof. destruct x; try discriminate; destruct s; eexists; split; reflexivity. Qed.

  Lemma finish2_cls_ok i era edec epa ea eb :
    is_float (ei_amp i) = true -> is_float era = true -> is_float edec = true -> is_float epa = true ->
    is_float ea = true -> is_float eb = true ->
    is_nonzero_float (ei_peak i) = true -> is_nonzero_float (ei_a i) = true -> is_nonzero_float (ei_b i) = true ->
    is_float (ei_int i) = true ->
    exists o, finish2_cls cfg i era edec epa ea eb = Some o /\ err_out_ok o = true.
  Proof.
    intros H0 H1 H2 H3 H4 H5 P A B I. unfold finish2_cls. cbn [c_six cfg opt_map6 fold_right].
    destruct (mask_cls_ok _ H0) as [m0 [-> M0]]. destruct (mask_cls_ok _ H1) as [m1 [-> M1]].
    destruct (mask_cls_ok _ H2) as [m2 [-> M2]]. destruct (mask_cls_ok _ H3) as [m3 [-> M3]].
    destruct (mask_cls_ok _ H4) as [m4 [-> M4]]. destruct (mask_cls_ok _ H5) as [m5 [-> M5]].
    (* err_int_flux: the relative errors are defined, their sum times int_flux is a float, and that is masked *)
    unfold int2_cls. destruct (sq_term2_some _ _ M0 P) as [t1 ->], (sq_term2_some _ _ M4 A) as [t2 ->],
      (sq_term2_some _ _ M5 B) as [t3 ->].
    cbn [c_int cfg]. destruct (raw_int_float (sq_sum2 [t1; t2; t3]) _ I) as [r [-> Hr]].
    destruct (mask_cls_ok _ Hr) as [e [-> E]].
    eexists. split; [reflexivity|]. apply err_out_ok_intro; assumption.
  Qed.

  (* every stderr may be positive, zero, negative, nan, +-inf or None; every propagated value may be any float;
     peak, a, b are floats other than 0 and int_flux is a float: the call returns and every err_* is positive-finite or -1 *)
  Lemma errors2_table_ok i0 pv :
    is_nonzero_float (ei_peak i0) = true -> is_nonzero_float (ei_a i0) = true -> is_nonzero_float (ei_b i0) = true ->
    is_float (ei_int i0) = true ->
    is_float (pp_ra pv) = true -> is_float (pp_dec pv) = true -> is_float (pp_pa pv) = true ->
    is_float (pp_a pv) = true -> is_float (pp_b pv) = true ->
    exists o, errors_model2_with g cfg i0 pv = Some o /\ err_out_ok o = true.
  Proof.
    intros P A B I R1 R2 R3 R4 R5. unfold errors_model2_with.
    (* conv_in has replaced None by nan in the six stderr and left the values alone *)
    set (i := conv_in cfg i0).
    destruct (has (ei_flags i) (g_early g)); [eexists; split; reflexivity|].
    destruct (negb (ei_ref_finite i)); [eexists; split; reflexivity|].
    destruct (guarded_float2 (g_pos g) (ei_v_xo i) (ei_v_yo i) _ _ _ _
                (none_to_nan_float (ei_xo i0)) (none_to_nan_float (ei_yo i0)) R1 R2) as (era & edec & E1 & Q1 & Q2).
    destruct (pa2_cls_float i pv (none_to_nan_float (ei_theta i0)) R3) as (epa & E2 & Q3).
    destruct (guarded_float2 (g_shape g) (ei_v_sx i) (ei_v_sy i) _ _ _ _
                (none_to_nan_float (ei_sx i0)) (none_to_nan_float (ei_sy i0)) R4 R5) as (ea & eb & E3 & Q4 & Q5).
    change (pos2_cls g i pv = Some (era, edec)) in E1. change (ab2_cls g i pv = Some (ea, eb)) in E3.
    rewrite E1, E2, E3. apply finish2_cls_ok; auto. exact (none_to_nan_float (ei_amp i0)).
  Qed.
End ErrorsTable2.

Open Scope Q_scope.

Lemma Qabs'_eq q : Qabs' q == Qabs q.
Proof.
  unfold Qabs'. destruct (Qleb 0 q) eqn:E.
  - apply Qleb_iff in E. symmetry. apply Qabs_pos. exact E.
  - apply Qleb_false in E. symmetry. apply Qabs_neg. apply Qlt_le_weak. exact E.
Qed.
Lemma Qabs'_leb q t : Qleb (Qabs' q) t = true <-> Qabs q <= t.
Proof. rewrite Qleb_iff, Qabs'_eq. reflexivity. Qed.

(* the clauses of the property for one component row *)
Definition shape_spec (r : row) : Prop := exists a b, r_a r = Fin a /\ r_b r = Fin b /\ 0 < b /\ b <= a.
Definition pa_spec (r : row) : Prop := exists p, r_pa r = Fin p /\ -(90) < p /\ p <= 90.
Definition ra_spec (r : row) : Prop := exists x, r_ra r = Fin x /\ 0 <= x /\ x < 360.
Definition dec_spec (r : row) : Prop := exists x, r_dec r = Fin x /\ -(90) <= x /\ x <= 90.
Definition err_spec (e : fval) : Prop := exists q, e = Fin q /\ (0 < q \/ q == -(1)).
Definition fields_spec (s : sexa) (dmax : Z) : Prop :=
  (0 <= x_d s <= dmax /\ 0 <= x_m s < 60 /\ 0 <= x_s s < 60 /\ 0 <= x_c s < 100)%Z.
(* the printed right ascension is the decimal one, in units of 0.01 s of time, to half a unit (+1e-6 for
   the binary64 product), modulo 24 h *)
Definition ra_str_spec (r : row) : Prop :=
  exists x s, r_ra r = Fin x /\ r_ra_str r = Some s /\ x_neg s = false /\ fields_spec s 23 /\
    (Qabs (x * inject_Z hms_scale - inject_Z (sexa_value s)) <= str_tol \/
     Qabs (x * inject_Z hms_scale - inject_Z (sexa_value s + 24 * hms_div1)) <= str_tol).
Definition dec_str_spec (r : row) : Prop :=
  exists x s, r_dec r = Fin x /\ r_dec_str r = Some s /\ fields_spec s 90 /\ (x_neg s = true <-> x < 0) /\
    Qabs (Qabs x * inject_Z dms_scale - inject_Z (sexa_value s)) <= str_tol.
(* int_flux = peak * a * b / (psf_a * psf_b) to within 1 % (cross-multiplied; psf axes positive) *)
Definition intflux_spec (r : row) : Prop :=
  exists p i a b pa pb, r_peak r = Fin p /\ r_int r = Fin i /\ r_a r = Fin a /\ r_b r = Fin b /\
    r_psf_a r = Fin pa /\ r_psf_b r = Fin pb /\ 0 < pa /\ 0 < pb /\
    Qabs (i * pa * pb - p * a * b) * 100 <= Qabs (p * a * b).
Definition row_spec (r : row) : Prop :=
  shape_spec r /\ pa_spec r /\ ra_spec r /\ dec_spec r /\ (r_flags r < 128)%N /\ Forall err_spec (r_errs r) /\
  ra_str_spec r /\ dec_str_spec r /\ intflux_spec r /\ (0 <= r_island r)%Z /\ (0 <= r_source r)%Z.

Lemma fin_okb_iff (x : fval) (b : Q -> bool) (P : Q -> Prop) : (forall q, b q = true <-> P q) ->
  match x with Fin q => b q | _ => false end = true <-> exists q, x = Fin q /\ P q.
Proof.
  intros H. destruct x as [q| | |]; try (split; [discriminate|intros (? & [=] & _)]).
  rewrite H. split; [eauto|intros (? & [= <-] & Hq); exact Hq].
Qed.

Lemma shape_okb_iff r : shape_okb r = true <-> shape_spec r.
Proof.
  unfold shape_okb, shape_spec. destruct (r_a r) as [a| | |]; try (split; [discriminate|intros (? & ? & [=] & _)]).
  setoid_rewrite (fin_okb_iff (r_b r) _ (fun b => 0 < b /\ b <= a)).
  - split; [intros (b & E & H)|intros (a' & b & [= <-] & E & H)]; eauto.
  - intros q. rewrite andb_true_iff, Qltb_iff, Qleb_iff. reflexivity.
Qed.
Lemma pa_okb_iff r : pa_okb r = true <-> pa_spec r.
Proof. apply fin_okb_iff. intros q. rewrite andb_true_iff, Qltb_iff, Qleb_iff. reflexivity. Qed.
Lemma ra_okb_iff r : ra_okb r = true <-> ra_spec r.
Proof. apply fin_okb_iff. intros q. rewrite andb_true_iff, Qltb_iff, Qleb_iff. reflexivity. Qed.
Lemma dec_okb_iff r : dec_okb r = true <-> dec_spec r.
Proof. apply fin_okb_iff. intros q. rewrite andb_true_iff, !Qleb_iff. reflexivity. Qed.
Lemma err_okb_iff e : err_okb e = true <-> err_spec e.
Proof. apply fin_okb_iff. intros q. rewrite orb_true_iff, Qltb_iff, Qeq_bool_iff. reflexivity. Qed.
Lemma errs_okb_iff r : errs_okb r = true <-> Forall err_spec (r_errs r).
Proof.
  unfold errs_okb. rewrite forallb_forall, Forall_forall. setoid_rewrite err_okb_iff. reflexivity.
Qed.
Lemma fields_okb_iff s dmax : fields_okb s dmax = true <-> fields_spec s dmax.
Proof.
  unfold fields_okb, fields_spec. rewrite !andb_true_iff, !Z.leb_le, !Z.ltb_lt. tauto.
Qed.
Lemma fin_some_okb_iff {S} (x : fval) (o : option S) (b : Q -> S -> bool) (P : Q -> S -> Prop) :
  (forall q s, b q s = true <-> P q s) ->
  match x, o with Fin q, Some s => b q s | _, _ => false end = true <-> exists q s, x = Fin q /\ o = Some s /\ P q s.
Proof.
  intros H. destruct x as [q| | |], o as [s|]; try (split; [discriminate|intros (? & ? & [=] & [=] & _)]).
  rewrite H. split; [eauto|intros (? & ? & [= <-] & [= <-] & Hq); exact Hq].
Qed.
Lemma ra_str_okb_iff r : ra_str_okb r = true <-> ra_str_spec r.
Proof.
  apply fin_some_okb_iff. intros x s.
  rewrite !andb_true_iff, orb_true_iff, negb_true_iff, fields_okb_iff, !Qabs'_leb. tauto.
Qed.
Lemma eqb_ltb_iff b x : Bool.eqb b (Qltb x 0) = true <-> (b = true <-> x < 0).
Proof. rewrite Bool.eqb_true_iff, Bool.eq_iff_eq_true, Qltb_iff. reflexivity. Qed.
Lemma dec_str_okb_iff r : dec_str_okb r = true <-> dec_str_spec r.
Proof.
  apply fin_some_okb_iff. intros x s.
  rewrite !andb_true_iff, fields_okb_iff, eqb_ltb_iff, Qabs'_leb, Qabs'_eq. tauto.
Qed.
Lemma intflux_okb_iff r : intflux_okb r = true <-> intflux_spec r.
Proof.
  unfold intflux_okb, intflux_spec. split.
  - destruct (r_peak r) as [p| | |]; try discriminate. destruct (r_int r) as [i| | |]; try discriminate.
    destruct (r_a r) as [a| | |]; try discriminate. destruct (r_b r) as [b| | |]; try discriminate.
    destruct (r_psf_a r) as [pa| | |]; try discriminate. destruct (r_psf_b r) as [pb| | |]; try discriminate.
    rewrite !andb_true_iff, !Qltb_iff, Qleb_iff, !Qabs'_eq. intros [[H1 H2] H3].
    exists p, i, a, b, pa, pb. repeat split; auto.
  - intros [p [i [a [b [pa [pb [-> [-> [-> [-> [-> [-> [H1 [H2 H3]]]]]]]]]]]]]].
    rewrite !andb_true_iff, !Qltb_iff, Qleb_iff, !Qabs'_eq. auto.
Qed.
Close Scope Q_scope.
Open Scope Z_scope.

Lemma row_ok_iff r : row_ok r = true <-> row_spec r.
Proof.
  unfold row_ok, row_spec.
  rewrite !andb_true_iff, shape_okb_iff, pa_okb_iff, ra_okb_iff, dec_okb_iff, errs_okb_iff, ra_str_okb_iff,
    dec_str_okb_iff, intflux_okb_iff, !Z.leb_le. unfold flags_ok. rewrite N.ltb_lt. tauto.
Qed.

Section Eqb.
  Context {A : Type} (eqb : A -> A -> bool) (Heq : forall x y, eqb x y = true <-> x = y).
  Lemma nodupb_iff l : nodupb eqb l = true <-> NoDup l.
  Proof.
    induction l as [|x l IH]; cbn [nodupb]; [split; constructor|].
    rewrite andb_true_iff, negb_true_iff, <- not_true_iff_false, (existsb_eqb_In eqb Heq), IH, NoDup_cons_iff. reflexivity.
  Qed.
End Eqb.
Lemma pair_eqb_iff p q : pair_eqb p q = true <-> p = q.
Proof.
  unfold pair_eqb. rewrite andb_true_iff, !Z.eqb_eq. destruct p, q; cbn [fst snd]. split.
  - intros [-> ->]. reflexivity.
  - intros E. inversion E. auto.
Qed.

Definition contiguous (ps : list (Z * Z)) : Prop :=
  forall i s, In (i, s) ps -> 0 <= s /\ (0 < s -> In (i, s - 1) ps).
Lemma contiguousb_iff ps : contiguousb ps = true <-> contiguous ps.
Proof.
  assert (forall i s, (0 <=? s) && ((s =? 0) || existsb (pair_eqb (i, s - 1)) ps) = true <->
                      0 <= s /\ (0 < s -> In (i, s - 1) ps)) as Hp.
  { intros i s. rewrite andb_true_iff, orb_true_iff, Z.leb_le, Z.eqb_eq, (existsb_eqb_In pair_eqb pair_eqb_iff).
    split; intros [H0 H]; (split; [exact H0|]).
    - destruct H as [E|H]; [lia|auto].
    - destruct (Z.eq_dec s 0) as [E|E]; [left; exact E|right; apply H; lia]. }
  unfold contiguousb, contiguous. rewrite forallb_forall. split.
  - intros H i s Hin. apply Hp. exact (H (i, s) Hin).
  - intros H [i s] Hin. apply Hp. exact (H i s Hin).
Qed.

Definition cat_spec (c : list row) : Prop :=
  Forall row_spec c /\ NoDup (pairs_of c) /\ NoDup (map r_uuid c) /\ contiguous (pairs_of c).
Lemma cat_ok_iff c : cat_ok c = true <-> cat_spec c.
Proof.
  unfold cat_ok, cat_spec. rewrite !andb_true_iff, forallb_forall, Forall_forall,
    (nodupb_iff pair_eqb pair_eqb_iff), (nodupb_iff Z.eqb Z.eqb_eq), contiguousb_iff.
  setoid_rewrite row_ok_iff. tauto.
Qed.

(* unique + contiguous = the components of an island with n rows carry exactly the numbers 0 .. n-1 *)
Lemma contiguous_down ps i s : contiguous ps -> In (i, s) ps -> forall j, 0 <= j <= s -> In (i, j) ps.
Proof.
  intros Hc Hin j [H0 Hj]. revert j Hj H0.
  apply (Z.left_induction (fun j => 0 <= j -> In (i, j) ps)); [intros ? ? ->; reflexivity|auto|].
  intros j Hlt IH H0. replace j with (Z.succ j - 1) by lia. apply (Hc i (Z.succ j)); [apply IH|]; lia.
Qed.
Lemma numbered_from_zero ps i : NoDup ps -> contiguous ps ->
  forall j, In (i, j) ps <-> 0 <= j < count_island ps i.
Proof.
  intros Hnd Hc. unfold count_island. set (mine := filter (fun p => fst p =? i) ps).
  assert (forall s, In (i, s) ps <-> In (i, s) mine) as Hmine.
  { intros s. unfold mine. rewrite filter_In. cbn [fst]. rewrite Z.eqb_refl. tauto. }
  (* with (i, s) the rows (i, 0) .. (i, s) are s + 1 distinct members of mine *)
  assert (forall s, In (i, s) ps -> 0 <= s < Z.of_nat (length mine)) as Hlt.
  { intros s Hin. split; [apply (Hc i s Hin)|].
    assert (incl (map (pair i) (zseq 0 (Z.to_nat (s + 1)))) mine) as Hincl.
    { intros p Hp. apply in_map_iff in Hp. destruct Hp as [s' [<- Hs]]. apply In_zseq in Hs.
      apply Hmine, (contiguous_down ps i s Hc Hin). lia. }
    apply NoDup_incl_length in Hincl.
    - rewrite map_length, zseq_length in Hincl. destruct (Hc i s Hin). lia.
    - apply FinFun.Injective_map_NoDup; [intros x y [=]; assumption|apply zseq_NoDup]. }
  intros j. split; [apply Hlt|]. intros Hj.
  (* so mine lies within (i, 0) .. (i, length mine - 1), which are no more than it has: it holds them all *)
  apply Hmine, (NoDup_length_incl (NoDup_filter _ Hnd) (l' := map (pair i) (zseq 0 (length mine)))).
  - rewrite map_length, zseq_length. reflexivity.
  - intros [i' s] Hp. assert (i' = i) as -> by (apply filter_In in Hp; destruct Hp as [_ E]; apply Z.eqb_eq, E).
    apply in_map, In_zseq. apply Hmine, Hlt in Hp. lia.
  - apply in_map, In_zseq. lia.
Qed.

Definition irow_spec (ps : list (Z * Z)) (ir : irow) (d : detected) : Prop :=
  i_components ir = count_island ps (i_island ir) /\ 1 <= i_components ir /\
  i_pixels ir = d_pixels d /\ 1 <= i_pixels ir <= i_xw ir * i_yw ir /\
  i_xmin ir = d_xmin d /\ i_xmax ir = d_xmax d /\ i_ymin ir = d_ymin d /\ i_ymax ir = d_ymax d /\
  i_xw ir = i_xmax ir - i_xmin ir /\ i_yw ir = i_ymax ir - i_ymin ir /\ (i_flags ir < 128)%N.
Lemma irow_ok_iff ps ir d : irow_ok ps ir d = true <-> irow_spec ps ir d.
Proof.
  unfold irow_ok, irow_spec, flags_ok. rewrite !andb_true_iff, !Z.eqb_eq, !Z.leb_le, N.ltb_lt. tauto.
Qed.

