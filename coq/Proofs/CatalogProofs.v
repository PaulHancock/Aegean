(* C18 - lemmas about Model/Catalog.v.  After the string and list facts, one characterising lemma per generated leaf
   (by computation); then the leaves are made opaque and everything else uses only those lemmas. *)
From Coq Require Import ZArith Bool List String Ascii Lia Permutation.
From Aegean Require Import Lib.Lists Gen.Catalog Model.Catalog.
Import ListNotations.
Open Scope string_scope.
Open Scope Z_scope.

(* Strings, nothing about the catalogue: la / sl (the two conversions between string and list ascii) and append *)
Lemma sl_app : forall a b, sl (a ++ b)%list = sl a ++ sl b.
Proof. induction a as [|x a IH]; intro b; [reflexivity|]. unfold sl in *. cbn. rewrite IH. reflexivity. Qed.

Lemma sl_la : forall s, sl (la s) = s.
Proof. exact string_of_list_ascii_of_string. Qed.

Lemma la_length : forall s, List.length (la s) = String.length s.
Proof. induction s as [|c s IH]; [reflexivity|]. unfold la in *. cbn. rewrite IH. reflexivity. Qed.

Lemma append_inj_l : forall p a b, p ++ a = p ++ b -> a = b.
Proof. induction p as [|c p IH]; intros a b H; cbn in H; [exact H|]. injection H as H. apply IH. exact H. Qed.

Lemma append_length : forall a b, String.length (a ++ b) = (String.length a + String.length b)%nat.
Proof. induction a as [|c a IH]; intro b; cbn; [reflexivity|]. rewrite IH. reflexivity. Qed.

Lemma append_inj_r_samelen : forall a b x y, String.length a = String.length b -> a ++ x = b ++ y -> a = b /\ x = y.
Proof.
  induction a as [|c a IH]; intros [|d b] x y L H; cbn in *; try discriminate.
  - split; [reflexivity|exact H].
  - injection H as -> H. injection L as L. destruct (IH b x y L H) as [-> ->]. split; reflexivity.
Qed.

Lemma leaf_classify_one : forall c,
  classify_one classify_tests c =
  if c =? 2 then Some 0 else if c =? 1 then Some 1 else if c =? 0 then Some 2 else None.
Proof.
  intro c. unfold classify_tests, classify_one, isinstance.
  destruct (Z.leb_spec 0 c); [destruct (Z.ltb_spec c 3)|]; cbn [andb].
  - assert (c = 0 \/ c = 1 \/ c = 2) as [-> | [-> | ->]] by lia; reflexivity.
  - rewrite !(proj2 (Z.eqb_neq c _)) by lia. reflexivity.
  - rewrite !(proj2 (Z.eqb_neq c _)) by lia. reflexivity.
Qed.

Lemma leaf_classify_return : classify_return = [0; 1; 2].
Proof. reflexivity. Qed.

Lemma leaf_write_blocks : write_blocks = [(0, "_comp"); (1, "_isle"); (2, "_simp")].
Proof. reflexivity. Qed.

Lemma leaf_write_min_len : write_min_len = 1.
Proof. reflexivity. Qed.

Lemma leaf_name_layout : forall suffix root ext,
  concat "" (map (fun i => nth (Z.to_nat i) [suffix; root; ext] "") name_layout) = root ++ suffix ++ ext.
Proof. intros. reflexivity. Qed.

Lemma leaf_db_nulls_on_rows : db_nulls_on_rows = true.
Proof. reflexivity. Qed.

Lemma leaf_db_table_names : db_table_names = ["components"; "islands"; "simples"].
Proof. reflexivity. Qed.

Lemma leaf_prefix_sep : prefix_sep = "_".
Proof. reflexivity. Qed.

(* the writer / reader chosen for every extension that load_table accepts *)
Lemma leaf_dispatch :
  map (fun e => (writer_code (save_writer e), load_reader e)) ["csv"; "tab"; "tex"; "vo"; "vot"; "xml"; "fits"] =
  [((3, "csv"), Some 0); ((3, "tab"), Some 0); ((3, "latex"), Some 0);
   ((0, "vo"), Some 1); ((0, "vot"), Some 1); ((0, "xml"), Some 1); ((2, "fits"), Some 1)].
Proof. reflexivity. Qed.

Lemma leaf_dispatch_other :
  map (fun e => writer_code (save_writer e)) ["db"; "sqlite"; "ann"; "reg"; "html"; "hdf5"; "bla"; ""] =
  [(-1, ""); (-1, ""); (-2, ""); (-2, ""); (3, "html"); (1, "hdf5"); (3, "tab"); (3, "tab")]
  /\ map load_reader ["db"; "sqlite"; "ann"; "reg"; "html"; "hdf5"; "bla"; ""] =
     [None; None; None; None; None; None; None; None].
Proof. split; reflexivity. Qed.

Lemma leaf_ext_lowered : ext_lowered = true /\ load_ext_lowered = true.
Proof. split; reflexivity. Qed.

(* galactic renaming of the three names lists *)
Lemma leaf_rename_component : map rename names_component =
  ["island"; "source"; "background"; "local_rms"; "lon_str"; "lat_str"; "lon"; "err_lon"; "lat"; "err_lat";
   "peak_flux"; "err_peak_flux"; "int_flux"; "err_int_flux"; "a"; "err_a"; "b"; "err_b"; "pa"; "err_pa";
   "flags"; "residual_mean"; "residual_std"; "uuid"; "psf_a"; "psf_b"; "psf_pa"].
Proof. reflexivity. Qed.

Fixpoint str_nodupb (l : list string) : bool :=
  match l with [] => true | x :: t => negb (str_in x t) && str_nodupb t end.
Lemma str_in_In : forall x l, str_in x l = true <-> In x l.
Proof.
  intros x l. unfold str_in. rewrite existsb_exists. split.
  - intros [y [Hy E]]. apply String.eqb_eq in E. subst. exact Hy.
  - intro H. exists x. split; [exact H|apply String.eqb_refl].
Qed.
Lemma str_nodupb_NoDup : forall l, str_nodupb l = true -> NoDup l.
Proof.
  induction l as [|x t IH]; intro H; [constructor|].
  cbn [str_nodupb] in H. apply andb_prop in H. destruct H as [H1 H2].
  constructor; [|apply IH; exact H2].
  intro HI. apply str_in_In in HI. rewrite HI in H1. discriminate.
Qed.

Lemma names_of_class_cases (P : list string -> Prop) c :
  P names_component -> P names_island -> P names_simple -> P (names_of_class c).
Proof. intros. unfold names_of_class. destruct (c =? 2); [|destruct (c =? 1)]; assumption. Qed.

Lemma leaf_names_nodup : forall (c : Z) (gal : bool),
  str_nodupb (map (fun n => if gal then rename n else n) (names_of_class c)) = true.
Proof. intros c gal. apply names_of_class_cases; destruct gal; vm_compute; reflexivity. Qed.

Lemma leaf_names_nonempty : forall c, names_of_class c <> [].
Proof. intro c. apply names_of_class_cases; discriminate. Qed.

Lemma leaf_names_of_class : names_of_class 2 = names_component /\ names_of_class 1 = names_island
  /\ names_of_class 0 = names_simple.
Proof. repeat split. Qed.

(* FITS column typing with the generated chain, for either setting of the two rule switches *)
Lemma fits_format_gen_spec : forall F sf wa name (col : list (cell F)),
  fits_format_gen F sf wa name col =
  if startswith "err_" name then FE
  else if String.eqb name "uuid" || sf && cell_isinstance F (first_cell F col) 3
       then FA (if wa then Nat.max 1 (max_len F col) else cell_len F (first_cell F col))
  else match first_cell F col with
       | CBool _ => FL | CInt _ => FJ | CFlt _ => FE | CStr s => FA (String.length s) | _ => FA 5
       end.
Proof.
  intros F sf wa name col. unfold fits_format_gen.
  change fits_err_prefix with "err_". change fits_uuid_name with "uuid". change (Z.to_nat fits_min_width) with 1%nat.
  destruct (startswith "err_" name); [reflexivity|].
  destruct (String.eqb name "uuid" || sf && cell_isinstance F (first_cell F col) 3); [reflexivity|].
  destruct (first_cell F col); reflexivity.
Qed.

Lemma leaf_fits_format : forall F name (col : list (cell F)),
  fits_format F name col =
  if startswith "err_" name then FE
  else if String.eqb name "uuid" || cell_isinstance F (first_cell F col) 3 then FA (Nat.max 1 (max_len F col))
  else match first_cell F col with
       | CBool _ => FL | CInt _ => FJ | CFlt _ => FE | CStr s => FA (String.length s) | _ => FA 5
       end.
Proof. intros F name col. exact (fits_format_gen_spec F true true name col). Qed.

Lemma leaf_loader_skips_masked : loader_skips_masked = true.
Proof. reflexivity. Qed.

Lemma leaf_fits_min_width : fits_min_width = 1.
Proof. reflexivity. Qed.

Lemma assoc_map_val {A B} (g : string -> A -> B) l k :
  assoc k (map (fun '(n, v) => (n, g n v)) l) = option_map (g k) (assoc k l).
Proof.
  induction l as [|[n v] l IH]; [reflexivity|]. cbn [map assoc].
  destruct (String.eqb_spec k n) as [->|_]; [reflexivity|exact IH].
Qed.
Lemma assoc_In {A} k (l : list (string * A)) v : assoc k l = Some v -> In (k, v) l.
Proof.
  induction l as [|[n w] l IH]; cbn [assoc]; [discriminate|].
  destruct (String.eqb_spec k n) as [->|_]; [intros [= ->]; left; reflexivity|right; auto].
Qed.

(* class defaults (SimpleSource.__init__ then the subclass __init__) are read off the table of default codes *)
Lemma default_attr F (nan : F) c u n :
  getattr F (default_source F nan c u) n =
  match assoc n (rev (init_simple ++ init_of_class c)%list) with Some code => default_cell F nan u code | None => CNone end.
Proof.
  unfold getattr, default_source. cbn [s_attr]. rewrite (assoc_map_val (fun _ => default_cell F nan u)).
  destruct (assoc n _); reflexivity.
Qed.
Lemma init_of_class_cases (P : list (string * Z) -> Prop) c : P init_component -> P init_island -> P [] -> P (init_of_class c).
Proof. intros. unfold init_of_class. destruct (c =? 2); [|destruct (c =? 1)]; assumption. Qed.

(* only uuid depends on the fresh uuid4: it is the one attribute with default code 3 *)
Lemma leaf_default_static : forall F (nan : F) c u n, n <> "uuid" ->
  getattr F (default_source F nan c u) n = getattr F (default_source F nan c "") n.
Proof.
  intros F nan c u n Hn. rewrite !default_attr. destruct (assoc n _) as [code|] eqn:E; [|reflexivity].
  apply assoc_In, in_rev in E.
  assert (T : forallb (fun '(k, d) => negb (d =? 3) || String.eqb k "uuid") (init_simple ++ init_of_class c) = true)
    by (pattern (init_of_class c); apply init_of_class_cases; vm_compute; reflexivity).
  rewrite forallb_forall in T. specialize (T _ E). cbn beta iota in T. unfold default_cell.
  destruct (code =? 3); [|reflexivity]. apply String.eqb_eq in T. contradiction.
Qed.

Definition nonfloat_attrs : list string := ["island"; "source"; "flags"; "ra_str"; "dec_str"; "uuid"].

(* every other attribute listed in `names` starts as NaN; the coordinate strings start as '' *)
Lemma leaf_default_nan : forall F (nan : F) c n, c = 0 \/ c = 1 \/ c = 2 ->
  In n (names_of_class c) -> ~ In n nonfloat_attrs ->
  getattr F (default_source F nan c "") n = CFlt nan.
Proof.
  intros F nan c n Hc Hin Hnf. rewrite default_attr.
  assert (T : forallb (fun n => str_in n nonfloat_attrs ||
                match assoc n (rev (init_simple ++ init_of_class c)%list) with Some 0 => true | _ => false end)
                (names_of_class c) = true) by (destruct Hc as [-> | [-> | ->]]; vm_compute; reflexivity).
  rewrite forallb_forall in T. specialize (T n Hin). apply orb_prop in T. destruct T as [T|T].
  - apply str_in_In in T. contradiction.
  - destruct (assoc n _) as [[| |]|]; try discriminate T. reflexivity.
Qed.

Lemma leaf_default_str : forall F (nan : F) c n, c = 1 \/ c = 2 -> n = "ra_str" \/ n = "dec_str" ->
  getattr F (default_source F nan c "") n = CStr "".
Proof. intros F nan c n [-> | ->] [-> | ->]; reflexivity. Qed.

Global Opaque classify_tests classify_return write_blocks write_min_len name_layout db_nulls_on_rows
  db_table_names prefix_sep galactic_rules fits_type_chain fits_str_first_rule fits_width_all_rows
  fits_err_prefix fits_uuid_name fits_fallback_width save_dispatch writer_dispatch load_dispatch
  table_formats ascii_table_formats names_component names_island names_simple loader_skips_masked fits_min_width
  init_simple init_island init_component.

Definition truncate (w : nat) (s : string) : string := sl (firstn w (la s)).
Lemma truncate_id : forall w s, (String.length s <= w)%nat -> truncate w s = s.
Proof.
  intros w s H. unfold truncate. rewrite firstn_all2; [apply sl_la|]. rewrite la_length. exact H.
Qed.

Lemma splitext_l_app : forall p r e, splitext_l p = (r, e) -> p = (r ++ e)%list.
Proof.
  intros p r e. unfold splitext_l.
  destruct (rfind is_dot p) as [d|]; [destruct (_ <=? d)%nat; [destruct (existsb _ _)|]|];
    intros [= <- <-]; [symmetry; apply firstn_skipn|symmetry; apply app_nil_r..].
Qed.

Lemma splitext_app : forall p r e, splitext p = (r, e) -> p = r ++ e.
Proof.
  intros p r e. unfold splitext. destruct (splitext_l (la p)) as [r' e'] eqn:E.
  intro H; injection H as <- <-. apply splitext_l_app in E.
  rewrite <- sl_app, <- E. symmetry. apply sl_la.
Qed.

Lemma out_name_spec : forall sfx filename root ext, splitext filename = (root, ext) ->
  out_name sfx filename = root ++ sfx ++ ext.
Proof. intros sfx f root ext H. unfold out_name. rewrite H. apply leaf_name_layout. Qed.

Definition suffixes : list string := map snd [(0, "_comp"); (1, "_isle"); (2, "_simp")].

Lemma out_name_injective : forall filename s1 s2, In s1 suffixes -> In s2 suffixes ->
  out_name s1 filename = out_name s2 filename -> s1 = s2.
Proof.
  intros f s1 s2 H1 H2 E. destruct (splitext f) as [root ext] eqn:S.
  rewrite (out_name_spec s1 f root ext S), (out_name_spec s2 f root ext S) in E.
  apply append_inj_l in E.
  assert (L : forall s, In s suffixes -> String.length s = 5%nat) by (intros s Hs; cbn in Hs; intuition subst; reflexivity).
  destruct (append_inj_r_samelen s1 s2 ext ext) as [-> _]; [rewrite !L by assumption| |]; auto.
Qed.

Section WithF.
Variable F : Type.
Variable nan : F.
Variable flt_eq_int : F -> Z -> bool.
Notation source := (source F).
Notation cell := (cell F).

Definition is_class (k : Z) (s : source) : bool := s_class s =? k.

Lemma class_cases (P : Z -> Prop) k : P 2 -> P 1 -> P 0 -> (k <> 2 -> k <> 1 -> k <> 0 -> P k) -> P k.
Proof.
  intros H2 H1 H0 H. destruct (Z.eq_dec k 2) as [->|N2]; [exact H2|]. destruct (Z.eq_dec k 1) as [->|N1]; [exact H1|].
  destruct (Z.eq_dec k 0) as [->|N0]; [exact H0|exact (H N2 N1 N0)].
Qed.

Lemma classify_fold : forall cat a b c,
  fold_left (classify_step F) cat (a, b, c) =
  ((a ++ filter (is_class 2) cat)%list, (b ++ filter (is_class 1) cat)%list, (c ++ filter (is_class 0) cat)%list).
Proof.
  induction cat as [|x cat IH]; intros a b c; cbn [fold_left classify_step filter]; [rewrite !app_nil_r; reflexivity|].
  rewrite leaf_classify_one. unfold is_class. pattern (s_class x). apply class_cases;
    [| | |intros N2 N1 N0; rewrite !(proj2 (Z.eqb_neq (s_class x) _)) by assumption];
    cbn [Z.eqb Pos.eqb]; rewrite IH, <- ?app_assoc; reflexivity.
Qed.

Lemma classify_spec : forall cat,
  classify F cat = [filter (is_class 2) cat; filter (is_class 1) cat; filter (is_class 0) cat].
Proof. intro cat. unfold classify. rewrite leaf_classify_return, classify_fold. reflexivity. Qed.

Lemma partition3_perm : forall cat : list source,
  Forall (fun s => 0 <= s_class s <= 2) cat ->
  Permutation (filter (is_class 2) cat ++ filter (is_class 1) cat ++ filter (is_class 0) cat)%list cat.
Proof.
  induction 1 as [|x cat Hx _ IH]; [constructor|]. cbn [filter]. unfold is_class. revert Hx. pattern (s_class x).
  apply class_cases; cbn [Z.eqb Pos.eqb]; intros.
  - constructor. exact IH.
  - apply Permutation_sym, Permutation_cons_app, Permutation_sym, IH.
  - rewrite app_assoc. apply Permutation_sym, Permutation_cons_app. rewrite <- app_assoc. apply Permutation_sym, IH.
  - lia.
Qed.

Definition file_if (name : string) (l : list source) : list (string * list source) :=
  match l with [] => [] | _ => [(name, l)] end.

Lemma min_len_guard : forall (name : string) (l : list source),
  (if 1 <=? Z.of_nat (List.length l) then [(name, l)] else []) = file_if name l.
Proof.
  intros name l. destruct l as [|x l]; [reflexivity|].
  rewrite (proj2 (Z.leb_le 1 _)) by (cbn [List.length]; lia). reflexivity.
Qed.

Lemma write_files_spec : forall filename cat,
  write_files F filename cat =
  (file_if (out_name "_comp" filename) (filter (is_class 2) cat) ++
   file_if (out_name "_isle" filename) (filter (is_class 1) cat) ++
   file_if (out_name "_simp" filename) (filter (is_class 0) cat))%list.
Proof.
  intros filename cat. unfold write_files. rewrite classify_spec, leaf_write_blocks, leaf_write_min_len.
  cbn [flat_map].
  change (Z.to_nat 0) with 0%nat. change (Z.to_nat 1) with 1%nat. change (Z.to_nat 2) with 2%nat.
  cbn [nth]. rewrite !min_len_guard, app_nil_r. reflexivity.
Qed.

Lemma filter_class : forall k (cat : list source) s, In s (filter (is_class k) cat) -> s_class s = k.
Proof. intros k cat s H. apply filter_In in H. destruct H as [_ H]. apply Z.eqb_eq. exact H. Qed.

Lemma build_table_names : forall pre (s0 : source) rest,
  map fst (build_table F pre (s0 :: rest)) =
  map (col_name pre (s_galactic s0)) (names_of_class (s_class s0)).
Proof. intros. unfold build_table. rewrite map_map. reflexivity. Qed.

Lemma build_table_lengths : forall pre (cat : list source) n col,
  In (n, col) (build_table F pre cat) -> List.length col = List.length cat.
Proof.
  intros pre cat n col H. destruct cat as [|s0 rest]; [contradiction|].
  unfold build_table in H. apply in_map_iff in H. destruct H as [m [E _]].
  injection E as _ <-. apply (map_length (fun s => getattr F s m) (s0 :: rest)).
Qed.

Lemma col_names_nodup : forall pre gal c, NoDup (map (col_name pre gal) (names_of_class c)).
Proof.
  intros pre gal c.
  assert (H := str_nodupb_NoDup _ (leaf_names_nodup c gal)).
  unfold col_name.
  rewrite <- (map_map (fun n => if gal then rename n else n) (fun m => pre_string pre ++ m)).
  apply FinFun.Injective_map_NoDup; [|exact H].
  intros a b E. apply append_inj_l in E. exact E.
Qed.

Lemma build_table_cells : forall pre (s0 : source) rest n,
  In n (names_of_class (s_class s0)) ->
  In (col_name pre (s_galactic s0) n, map (fun s => getattr F s n) (s0 :: rest)) (build_table F pre (s0 :: rest)).
Proof.
  intros pre s0 rest n H. unfold build_table. apply in_map_iff. exists n. split; [reflexivity|exact H].
Qed.

Lemma max_len_ge : forall (col : list cell) s, In (CStr s) col -> (String.length s <= max_len F col)%nat.
Proof.
  induction col as [|c col IH]; intros s H; [contradiction|].
  cbn [max_len fold_right]. destruct H as [->|H].
  - cbn [cell_len]. apply Nat.le_max_l.
  - specialize (IH s H). unfold max_len in IH. lia.
Qed.

Definition cell_tag (c : cell) : Z :=
  match c with CBool _ => 0 | CInt _ => 1 | CFlt _ => 2 | CStr _ => 3 | CNone => 4 | CList => 5 | CMasked => 6 end.
(* what numpy guarantees for a table column: one dtype *)
Definition homogeneous (col : list cell) : Prop :=
  forall c, In c col -> cell_tag c = cell_tag (first_cell F col).

Lemma string_width : forall name (col : list cell) w,
  homogeneous col -> fits_format F name col = FA w ->
  (1 <= w)%nat /\ forall s, In (CStr s) col -> (String.length s <= w)%nat.
Proof.
  intros name col w Hh Hf. rewrite leaf_fits_format in Hf.
  destruct (startswith "err_" name); [discriminate|].
  destruct (String.eqb name "uuid" || cell_isinstance F (first_cell F col) 3) eqn:E.
  - pose proof (fun s Hs => max_len_ge col s Hs) as Hm. injection Hf as Hw.
    destruct (max_len F col) as [|k]; cbn in Hw; subst w; (split; [lia|]); intros s Hs; specialize (Hm s Hs); lia.
  - apply orb_false_elim in E. destruct E as [_ E].
    destruct (first_cell F col) eqn:Ef; cbn in E; try discriminate; injection Hf as <-;
      (split; [lia|]); intros s Hs; specialize (Hh _ Hs); rewrite Ef in Hh; cbn [cell_tag] in Hh; discriminate.
Qed.

Lemma assoc_map_key : forall (A : Type) (g : string -> A) (key : string -> string) (l : list string) n,
  (forall a b, key a = key b -> a = b) -> In n l ->
  assoc (key n) (map (fun m => (key m, g m)) l) = Some (g n).
Proof.
  intros A g key l n Hinj. induction l as [|m l IH]; intro H; [contradiction|].
  cbn [map assoc]. destruct (String.eqb (key n) (key m)) eqn:E.
  - apply String.eqb_eq in E. apply Hinj in E. subst. reflexivity.
  - destruct H as [->|H]; [rewrite String.eqb_refl in E; discriminate|]. apply IH. exact H.
Qed.

Lemma assoc_map_none : forall (A : Type) (g : string -> A) (key : string -> string) (l : list string) k,
  ~ In k (map key l) -> assoc k (map (fun m => (key m, g m)) l) = None.
Proof.
  intros A g key l k. induction l as [|m l IH]; intro H; [reflexivity|].
  cbn [map assoc]. destruct (String.eqb k (key m)) eqn:E.
  - apply String.eqb_eq in E. exfalso. apply H. left. symmetry. exact E.
  - apply IH. intro HI. apply H. right. exact HI.
Qed.

Lemma getattr_setattr_same : forall (s : source) n v, getattr F (setattr F s n v) n = v.
Proof. intros. unfold getattr, setattr. cbn. rewrite String.eqb_refl. reflexivity. Qed.

Lemma getattr_setattr_other : forall (s : source) n m v, n <> m -> getattr F (setattr F s m v) n = getattr F s n.
Proof.
  intros s n m v H. unfold getattr, setattr. cbn.
  destruct (String.eqb n m) eqn:E; [apply String.eqb_eq in E; contradiction|reflexivity].
Qed.

Definition cell_or (t : table F) (i : nat) (p : string) (x : cell) : cell :=
  match assoc p t with
  | Some col => let v := nth i col CNone in if is_masked F v then x else v
  | None => x
  end.

Lemma cell_or_idem : forall t i p x, cell_or t i p (cell_or t i p x) = cell_or t i p x.
Proof. intros t i p x. unfold cell_or. destruct (assoc p t); [|reflexivity]. cbv zeta. destruct (is_masked F _); reflexivity. Qed.

Lemma load_step_get : forall (t : table F) i (s : source) q p,
  getattr F (load_step F t i s q) p = if String.eqb p q then cell_or t i p (getattr F s p) else getattr F s p.
Proof.
  intros t i s q p. unfold load_step, cell_or. rewrite leaf_loader_skips_masked. cbn [andb].
  destruct (String.eqb_spec p q) as [->|N]; (destruct (assoc q t) as [col|]; [|reflexivity]); cbv zeta;
    (destruct (is_masked F (nth i col CNone)); [reflexivity|]).
  - apply getattr_setattr_same.
  - apply getattr_setattr_other. exact N.
Qed.

(* after the copy loop attribute p holds the table cell when p is one of the copied names, the column exists
   and the cell is not masked; the old value (the class default) otherwise *)
Lemma load_fold_get : forall (t : table F) i (ps : list string) (s : source) p,
  getattr F (fold_left (load_step F t i) ps s) p =
  if str_in p ps then cell_or t i p (getattr F s p) else getattr F s p.
Proof.
  intros t i ps. induction ps as [|q ps IH]; intros s p; [reflexivity|].
  cbn [fold_left]. unfold str_in. cbn [existsb]. fold (str_in p ps). rewrite IH, load_step_get.
  destruct (String.eqb p q); cbn [orb]; [|reflexivity]. destruct (str_in p ps); [apply cell_or_idem|reflexivity].
Qed.

Lemma load_fold_class : forall (t : table F) i (ps : list string) (s : source),
  s_class (fold_left (load_step F t i) ps s) = s_class s.
Proof.
  intros t i ps s. apply (fold_left_inv (fun s' => s_class s' = s_class s)); [|reflexivity].
  intros a q _ <-. unfold load_step. destruct (assoc q t); [destruct (_ && _)|]; reflexivity.
Qed.

Lemma default_class : forall c u, s_class (default_source F nan c u) = c.
Proof. reflexivity. Qed.

Lemma nrows_map_cells : forall (g : cell -> cell) (t : table F),
  nrows F (map (fun '(n, col) => (n, map g col)) t) = nrows F t.
Proof. intros g [|[n col] t]; [reflexivity|]. cbn. apply map_length. Qed.

Lemma nrows_build : forall pre (cat : list source), nrows F (build_table F pre cat) = List.length cat.
Proof.
  intros pre [|s0 rest]; [reflexivity|]. unfold build_table, nrows.
  destruct (names_of_class (s_class s0)) as [|n ns] eqn:E; [exfalso; exact (leaf_names_nonempty _ E)|].
  cbn [map]. apply (map_length (fun s => getattr F s n) (s0 :: rest)).
Qed.

Lemma build_table_assoc : forall c (cat : list source) n,
  cat <> [] -> (forall s, In s cat -> s_class s = c) -> (forall s, In s cat -> s_galactic s = false) ->
  In n (names_of_class c) -> assoc n (build_table F None cat) = Some (map (fun s => getattr F s n) cat).
Proof.
  intros c cat n Hne Hc Hg Hn. destruct cat as [|s0 rest]; [contradiction|]. unfold build_table.
  rewrite (Hc s0), (Hg s0) by (left; reflexivity).
  apply (assoc_map_key _ (fun n => map (fun s => getattr F s n) (s0 :: rest)) (col_name None false)); [|exact Hn].
  intros a b E. exact E.
Qed.

(* the loader applied to a table whose columns are (name, per-row function of the written cells) *)
Section Loaded.
Variable cellmap : string -> list cell -> cell -> cell.   (* what the file format does to a cell of column n *)

Definition through (t : table F) : table F := map (fun '(n, col) => (n, map (cellmap n col) col)) t.

Lemma assoc_through : forall (t : table F) k,
  assoc k (through t) = match assoc k t with Some col => Some (map (cellmap k col) col) | None => None end.
Proof. intros t k. exact (assoc_map_val (fun n col => map (cellmap n col) col) t k). Qed.

Lemma nrows_through : forall t, nrows F (through t) = nrows F t.
Proof. intros [|[n col] t]; [reflexivity|]. cbn. apply map_length. Qed.

(* what the loader leaves in attribute n when the file gives back cell v: a masked cell is skipped, so the
   class default (which does not depend on the fresh uuid except for `uuid` itself) stays *)
Definition post (c : Z) (n : string) (v : cell) : cell :=
  if is_masked F v then getattr F (default_source F nan c "") n else v.

Lemma loaded_length : forall c uuids (t : table F), List.length (table_to_source_list F nan c uuids t) = nrows F t.
Proof. intros. unfold table_to_source_list. rewrite map_length. apply seq_length. Qed.

Lemma loaded_class : forall c uuids t s, In s (table_to_source_list F nan c uuids t) -> s_class s = c.
Proof.
  intros c uuids t s H. unfold table_to_source_list in H. apply in_map_iff in H.
  destruct H as [i [<- _]]. unfold load_row. rewrite load_fold_class. reflexivity.
Qed.

Lemma loaded_through : forall c uuids (cat : list source),
  cat <> [] ->
  (forall s, In s cat -> s_class s = c) ->
  (forall s, In s cat -> s_galactic s = false) ->
  (forall s, In s cat -> is_masked F (cellmap "uuid" (map (fun s' => getattr F s' "uuid") cat) (getattr F s "uuid")) = false) ->
  let loaded := table_to_source_list F nan c uuids (through (build_table F None cat)) in
  List.length loaded = List.length cat /\
  (forall s, In s loaded -> s_class s = c) /\
  map (as_list F) loaded =
  map (fun s => map (fun n => post c n (cellmap n (map (fun s' => getattr F s' n) cat) (getattr F s n)))
                    (names_of_class c)) cat.
Proof.
  intros c uuids cat Hne Hc Hg Hu loaded.
  split; [unfold loaded; rewrite loaded_length, nrows_through; apply nrows_build|]. split; [apply loaded_class|].
  subst loaded. set (d := default_source F nan c "").
  unfold table_to_source_list. rewrite nrows_through, nrows_build, map_map.
  apply (map_seq_nth cat d). intros i Hi.
  unfold as_list, load_row. rewrite load_fold_class, default_class.
  apply map_ext_in. intros n Hn. rewrite load_fold_get, (proj2 (str_in_In n _) Hn).
  unfold cell_or. rewrite assoc_through, (build_table_assoc c cat n Hne Hc Hg Hn). cbv zeta.
  rewrite (nth_map_lt (cellmap n (map (fun s' => getattr F s' n) cat)) _ i CNone CNone)
    by (rewrite map_length; exact Hi).
  rewrite (nth_map_lt (fun s' => getattr F s' n) cat i CNone d) by exact Hi.
  unfold post.
  destruct (is_masked F (cellmap n (map (fun s' => getattr F s' n) cat) (getattr F (nth i cat d) n))) eqn:M;
    [|reflexivity].
  destruct (string_dec n "uuid") as [->|Nu].
  - rewrite (Hu (nth i cat d) (nth_In cat d Hi)) in M. discriminate.
  - apply leaf_default_static. exact Nu.
Qed.
End Loaded.

(* with a column prefix (or galactic names) none of the written columns is found again *)
Lemma loaded_prefixed_defaults : forall c uuids (t : table F),
  (forall n, In n (names_of_class c) -> assoc n t = None) ->
  table_to_source_list F nan c uuids t = map (fun i => default_source F nan c (uuids i)) (seq 0 (nrows F t)).
Proof.
  intros c uuids t H. unfold table_to_source_list. apply map_ext. intro i. unfold load_row.
  apply (fold_left_inv (fun s => s = default_source F nan c (uuids i))); [|reflexivity].
  intros a n Hn ->. unfold load_step. rewrite (H n Hn). reflexivity.
Qed.

Lemma nulls_row : forall r : list cell, nulls F flt_eq_int (VRow r) = VRow r.
Proof. reflexivity. Qed.

Lemma db_row_spec : forall s : source, db_row F flt_eq_int s = map Some (as_list F s).
Proof. intro s. unfold db_row. rewrite leaf_db_nulls_on_rows. reflexivity. Qed.

Definition db_if (tn : string) (c : Z) (l : list source) :=
  match l with [] => [] | _ => [(tn, names_of_class c, map (fun s => map Some (as_list F s)) l)] end.

Lemma db_block : forall tn k (cat : list source),
  match filter (is_class k) cat with
  | [] => []
  | s0 :: _ => [(tn, names_of_class (s_class s0), map (db_row F flt_eq_int) (filter (is_class k) cat))]
  end = db_if tn k (filter (is_class k) cat).
Proof.
  intros tn k cat. destruct (filter (is_class k) cat) as [|s0 l] eqn:E; [reflexivity|]. unfold db_if.
  rewrite (filter_class k cat s0) by (rewrite E; left; reflexivity).
  rewrite (map_ext _ _ db_row_spec). reflexivity.
Qed.

Lemma db_tables_spec : forall cat,
  db_tables F flt_eq_int cat =
  (db_if "components" 2 (filter (is_class 2) cat) ++ db_if "islands" 1 (filter (is_class 1) cat) ++
   db_if "simples" 0 (filter (is_class 0) cat))%list.
Proof.
  intro cat. unfold db_tables. rewrite classify_spec, leaf_db_table_names.
  cbn [combine flat_map]. rewrite !db_block, app_nil_r. reflexivity.
Qed.

End WithF.
