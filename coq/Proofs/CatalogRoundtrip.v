(* C18 - round trip through a file.  The file formats are library code (astropy.io.ascii, votable,
   fits): they appear as Section variables with an explicit hypothesis about what comes back from
   reading the file that was written from a table; the harness validates the hypotheses with real
   round trips on every run.  astropy returns numpy.ma.masked (CMasked) for a NaN read from a VOTable
   or FITS file and for an empty string read from a text or FITS file; the loader skips masked cells,
   so the class default (NaN / '') stays.  What is proved is that Aegean's table construction followed
   by Aegean's loader gives every source back, cell by cell. *)
From Coq Require Import ZArith Bool List String Ascii Lia.
From Aegean Require Import Gen.Catalog Model.Catalog Proofs.CatalogProofs.
Import ListNotations.
Open Scope string_scope.
Open Scope Z_scope.

Section Roundtrip.
Variable F : Type.
Variable nan : F.                (* the NaN the source classes start with (numpy.nan) *)
Variable is_nan : F -> bool.
(* what writing + reading does to a float that is not NaN: the identity for csv/tab/tex/VOTable
   (double precision), rounding to binary32 for a FITS 'E' column *)
Variable rnd : F -> F.
(* what the reader of the format masks *)
Variable mask_nan : bool.        (* VOTable, FITS *)
Variable mask_empty : bool.      (* csv, tab, tex, FITS *)
Notation source := (source F).
Notation cell := (cell F).

Definition is_empty (s : string) : bool := String.eqb s "".

Definition cell_rt (c : cell) : cell :=
  match c with
  | CFlt f => if mask_nan && is_nan f then CMasked else CFlt (rnd f)
  | CStr s => if mask_empty && is_empty s then CMasked else CStr s
  | _ => c
  end.

(* Text formats and VOTable: one (dec o enc) per table *)
Section Generic.
Variable dom : table F -> Prop.          (* tables on which the library round trip is claimed *)
Variable file_rt : table F -> table F.   (* read (write t) *)
Hypothesis file_rt_spec : forall t, dom t ->
  file_rt t = map (fun '(n, col) => (n, map cell_rt col)) t.

Lemma roundtrip_generic : forall c uuids (cat : list source),
  cat <> [] ->
  (forall s, In s cat -> s_class s = c) ->
  (forall s, In s cat -> s_galactic s = false) ->
  (forall s, In s cat -> is_masked F (cell_rt (getattr F s "uuid")) = false) ->
  dom (build_table F None cat) ->
  let loaded := table_to_source_list F nan c uuids (file_rt (build_table F None cat)) in
  List.length loaded = List.length cat /\
  (forall s, In s loaded -> s_class s = c) /\
  map (as_list F) loaded =
    map (fun s => map (fun n => post F nan c n (cell_rt (getattr F s n))) (names_of_class c)) cat.
Proof.
  intros c uuids cat Hne Hc Hg Hu Hd loaded. subst loaded. rewrite (file_rt_spec _ Hd).
  change (map (fun '(n, col) => (n, map cell_rt col)) (build_table F None cat))
    with (through F (fun _ _ => cell_rt) (build_table F None cat)).
  exact (loaded_through F nan (fun _ _ => cell_rt) c uuids cat Hne Hc Hg Hu).
Qed.
End Generic.

(* what the round trip must give back: NaN stays NaN (when the reader masks it, the skipped attribute keeps
   the class default nan), '' stays '', every other float goes through rnd, everything else is unchanged *)
Definition expected (c : cell) : cell :=
  match c with
  | CFlt f => if mask_nan && is_nan f then CFlt nan else CFlt (rnd f)
  | _ => c
  end.

(* the attribute is one whose class default restores what the reader masked *)
Definition restorable (c : Z) (n : string) (v : cell) : Prop :=
  match v with
  | CFlt f => is_nan f = true -> getattr F (default_source F nan c "") n = CFlt nan
  | CStr s => is_empty s = true -> getattr F (default_source F nan c "") n = CStr ""
  | CMasked => False          (* a catalogue does not hold masked cells *)
  | _ => True
  end.

Lemma post_cell_rt : forall c n v, restorable c n v -> post F nan c n (cell_rt v) = expected v.
Proof.
  intros c n v H. unfold post, cell_rt, expected. destruct v; try reflexivity.
  - cbn [restorable] in H. destruct (mask_nan && is_nan f) eqn:M; cbn [is_masked]; [|reflexivity].
    apply andb_prop in M. destruct M as [_ M]. exact (H M).
  - cbn [restorable] in H. destruct (mask_empty && is_empty s) eqn:M; cbn [is_masked]; [|reflexivity].
    apply andb_prop in M. destruct M as [_ M]. rewrite (H M). unfold is_empty in M.
    apply String.eqb_eq in M. subst. reflexivity.
  - contradiction.
Qed.

(* every float attribute of `names` (all but the six of nonfloat_attrs) starts as NaN, the coordinate strings as '' *)
Lemma restorable_float : forall c n f, c = 0 \/ c = 1 \/ c = 2 -> In n (names_of_class c) ->
  ~ In n nonfloat_attrs -> restorable c n (CFlt f).
Proof. intros c n f Hc Hn Hf _. apply leaf_default_nan; assumption. Qed.

Lemma restorable_coord : forall c n s, c = 1 \/ c = 2 -> n = "ra_str" \/ n = "dec_str" -> restorable c n (CStr s).
Proof. intros c n s Hc Hn _. apply leaf_default_str; assumption. Qed.

Lemma roundtrip_restored : forall (dom : table F -> Prop) (file_rt : table F -> table F),
  (forall t, dom t -> file_rt t = map (fun '(n, col) => (n, map cell_rt col)) t) ->
  forall c uuids (cat : list source),
  cat <> [] ->
  (forall s, In s cat -> s_class s = c) ->
  (forall s, In s cat -> s_galactic s = false) ->
  (forall s, In s cat -> is_masked F (cell_rt (getattr F s "uuid")) = false) ->
  (forall s n, In s cat -> In n (names_of_class c) -> restorable c n (getattr F s n)) ->
  dom (build_table F None cat) ->
  map (as_list F) (table_to_source_list F nan c uuids (file_rt (build_table F None cat))) =
  map (fun s => map expected (as_list F s)) cat.
Proof.
  intros dom file_rt H c uuids cat Hne Hc Hg Hu Hr Hd.
  destruct (roundtrip_generic dom file_rt H c uuids cat Hne Hc Hg Hu Hd) as [_ [_ E]]. rewrite E.
  apply map_ext_in. intros s Hs. unfold as_list. rewrite (Hc s Hs), map_map.
  apply map_ext_in. intros n Hn. apply post_cell_rt. apply Hr; assumption.
Qed.

(* FITS: Aegean chooses the column formats; the library stores each column in its format
   and masks NaN / '' on reading *)
Section Fits.
Variable of_int : Z -> F.                 (* an integer stored in an 'E' column *)
Definition fits_cell (f : fitsfmt) (c : cell) : cell :=
  match c with
  | CStr s => let t := match f with FA w => truncate w s | _ => s end in   (* a longer string is cut *)
              if is_empty t then CMasked else CStr t
  | CFlt x => match f with FE => if is_nan x then CMasked else CFlt (rnd x) | _ => c end
  | CInt z => match f with FE => CFlt (of_int z) | _ => c end
  | _ => c
  end.
Definition fits_columns (t : table F) : list (string * fitsfmt * list cell) :=
  map (fun '(n, col) => (n, fits_format F n col, col)) t.
Variable fdom : list (string * fitsfmt * list cell) -> Prop.
Variable fits_rt : list (string * fitsfmt * list cell) -> table F.
Hypothesis fits_rt_spec : forall cols, fdom cols ->
  fits_rt cols = map (fun '(n, f, col) => (n, map (fits_cell f) col)) cols.

(* what the reader hands to the loader: strings and integers unchanged (the empty string masked), floats
   rounded (NaN masked), the integer -1 of an err_ column as a float *)
Definition fits_read (n : string) (c : cell) : cell :=
  match c with
  | CFlt x => if is_nan x then CMasked else CFlt (rnd x)
  | CInt z => if startswith "err_" n then CFlt (of_int z) else CInt z
  | CStr s => if is_empty s then CMasked else CStr s
  | _ => c
  end.
(* and what the loader makes of it when the attribute is restorable *)
Definition fits_expected (n : string) (c : cell) : cell :=
  match c with
  | CFlt x => if is_nan x then CFlt nan else CFlt (rnd x)
  | CInt z => if startswith "err_" n then CFlt (of_int z) else CInt z
  | _ => c
  end.

Lemma fits_cell_read : forall n (col : list cell) c,
  homogeneous F col -> In c col -> (n = "uuid" -> exists u, c = CStr u) ->
  fits_cell (fits_format F n col) c = fits_read n c.
Proof.
  intros n col c Hh Hin Hu. rewrite leaf_fits_format. unfold fits_read.
  assert (Hw : forall s, In (CStr s) col -> truncate (Nat.max 1 (max_len F col)) s = s).
  { intros s Hs. apply truncate_id. pose proof (max_len_ge F col s Hs). lia. }
  destruct (startswith "err_" n) eqn:Ee.
  - destruct c; reflexivity.
  - destruct (String.eqb n "uuid") eqn:En.
    + apply String.eqb_eq in En. destruct (Hu En) as [u ->]. cbn [orb fits_cell]. cbv zeta.
      rewrite (Hw u Hin). reflexivity.
    + cbn [orb]. specialize (Hh c Hin).
      destruct (first_cell F col) eqn:Ef; cbn [cell_isinstance Z.eqb Pos.eqb orb] in *;
        destruct c; cbn [cell_tag] in Hh; try discriminate; cbn [fits_cell]; try reflexivity.
      cbv zeta. match goal with H : In (CStr ?x) col |- _ => rewrite (Hw x H) end. reflexivity.
Qed.

Lemma post_fits_read : forall c n v, restorable c n v -> post F nan c n (fits_read n v) = fits_expected n v.
Proof.
  intros c n v H. unfold post, fits_read, fits_expected. destruct v; try reflexivity.
  - destruct (startswith "err_" n); reflexivity.
  - cbn [restorable] in H. destruct (is_nan f) eqn:N; cbn [is_masked]; [exact (H eq_refl)|reflexivity].
  - cbn [restorable] in H. destruct (is_empty s) eqn:M; cbn [is_masked]; [|reflexivity].
    rewrite (H eq_refl). unfold is_empty in M. apply String.eqb_eq in M. subst. reflexivity.
  - contradiction.
Qed.

Lemma roundtrip_fits : forall c uuids (cat : list source),
  cat <> [] ->
  (forall s, In s cat -> s_class s = c) ->
  (forall s, In s cat -> s_galactic s = false) ->
  (forall n, In n (names_of_class c) -> homogeneous F (map (fun s => getattr F s n) cat)) ->
  (forall s, In s cat -> exists u, getattr F s "uuid" = CStr u /\ is_empty u = false) ->
  (forall s n, In s cat -> In n (names_of_class c) -> restorable c n (getattr F s n)) ->
  fdom (fits_columns (build_table F None cat)) ->
  let loaded := table_to_source_list F nan c uuids (fits_rt (fits_columns (build_table F None cat))) in
  List.length loaded = List.length cat /\
  (forall s, In s loaded -> s_class s = c) /\
  map (as_list F) loaded = map (fun s => map (fun n => fits_expected n (getattr F s n)) (names_of_class c)) cat.
Proof.
  intros c uuids cat Hne Hc Hg Hh Hu Hr Hd loaded. subst loaded. rewrite (fits_rt_spec _ Hd).
  assert (E : map (fun '(n, f, col) => (n, map (fits_cell f) col)) (fits_columns (build_table F None cat)) =
              through F (fun n col => fits_cell (fits_format F n col)) (build_table F None cat)).
  { unfold fits_columns, through. rewrite map_map. apply map_ext. intros [n col]. reflexivity. }
  rewrite E.
  assert (Hin : forall s n, In s cat -> In (getattr F s n) (map (fun s' => getattr F s' n) cat)).
  { intros s n Hs. apply in_map_iff. exists s. split; [reflexivity|exact Hs]. }
  destruct (loaded_through F nan (fun n col => fits_cell (fits_format F n col)) c uuids cat Hne Hc Hg) as (Hl & Hcl & Hrows).
  - intros s Hs. destruct (Hu s Hs) as [u [Eu Ne]].
    rewrite fits_cell_read; [|apply Hh; apply names_of_class_cases; apply str_in_In; reflexivity|apply Hin; exact Hs|intros _; exists u; exact Eu].
    rewrite Eu. cbn [fits_read]. rewrite Ne. reflexivity.
  - split; [exact Hl|]. split; [exact Hcl|]. rewrite Hrows.
    apply map_ext_in. intros s Hs. apply map_ext_in. intros n Hn.
    rewrite fits_cell_read.
    + apply post_fits_read. apply Hr; assumption.
    + apply Hh. exact Hn.
    + apply Hin. exact Hs.
    + intros ->. destruct (Hu s Hs) as [u [Eu _]]. exists u. exact Eu.
Qed.
End Fits.

End Roundtrip.

(* value-exact formats that mask no NaN (csv, tab, tex): with rnd the identity and no NaN masking `expected` is
   the identity, so every cell - NaN and the -1 marker included - comes back *)
Lemma expected_id : forall F (nan : F) is_nan (c : cell F),
  expected F nan is_nan (fun x => x) false c = c.
Proof. intros F nan is_nan c. destruct c; reflexivity. Qed.
