(* C18 - os.path.splitext (model) commutes with inserting a plain suffix before the extension:
   the file written as root ++ "_comp" ++ ext has the same extension as the name that was asked for,
   so load_table chooses its reader from the same extension that save_catalog used for the writer. *)
From Coq Require Import ZArith Bool List String Ascii Lia.
From Aegean Require Import Gen.Catalog Model.Catalog Proofs.CatalogProofs.
Import ListNotations.
Section Rfind.
Variable f : ascii -> bool.

(* the accumulator of rfind_aux only shifts the index and supplies the default *)
Lemma rfind_aux_shift : forall l i best,
  rfind_aux f l i best = match rfind f l with Some d => Some (i + d)%nat | None => best end.
Proof.
  unfold rfind. induction l as [|c l IH]; intros i best; [reflexivity|]. cbn [rfind_aux].
  rewrite (IH 1%nat), (IH (S i)). destruct (rfind_aux f l 0 None); [f_equal; lia|].
  destruct (f c); [f_equal; lia|reflexivity].
Qed.

Lemma rfind_cons : forall c l,
  rfind f (c :: l) = match rfind f l with Some d => Some (S d) | None => if f c then Some 0%nat else None end.
Proof. intros c l. unfold rfind at 1. cbn [rfind_aux]. rewrite rfind_aux_shift. reflexivity. Qed.

Lemma rfind_app : forall a t,
  rfind f (a ++ t) = match rfind f t with Some d => Some (List.length a + d)%nat | None => rfind f a end.
Proof.
  induction a as [|c a IH]; intro t; cbn [app List.length]; [destruct (rfind f t); reflexivity|].
  rewrite !rfind_cons, IH. destruct (rfind f t); reflexivity.
Qed.

Lemma rfind_none : forall l, rfind f l = None <-> existsb f l = false.
Proof.
  induction l as [|c l IH]; [split; reflexivity|]. rewrite rfind_cons. cbn [existsb]. rewrite orb_false_iff, <- IH.
  destruct (rfind f l), (f c); intuition discriminate.
Qed.

Lemma rfind_some : forall l d, rfind f l = Some d ->
  exists a c b, l = (a ++ c :: b)%list /\ List.length a = d /\ f c = true /\ existsb f b = false.
Proof.
  induction l as [|x l IH]; intro d; [discriminate|]. rewrite rfind_cons. destruct (rfind f l) as [d'|] eqn:E.
  - intros [= <-]. destruct (IH d' eq_refl) as (a & c & b & -> & <- & Hc & Hb). exists (x :: a), c, b. auto.
  - destruct (f x) eqn:Fx; [|discriminate]. intros [= <-]. exists [], x, l. apply rfind_none in E. auto.
Qed.

Lemma rfind_last : forall a c b, f c = true -> existsb f b = false -> rfind f (a ++ c :: b) = Some (List.length a).
Proof. intros a c b Hc Hb. apply rfind_none in Hb. rewrite rfind_app, rfind_cons, Hb, Hc, Nat.add_0_r. reflexivity. Qed.

Lemma rfind_lt : forall l d, rfind f l = Some d -> (d < List.length l)%nat.
Proof.
  intros l d H. destruct (rfind_some l d H) as (a & c & b & -> & <- & _). rewrite app_length. cbn [List.length]. lia.
Qed.
End Rfind.

Definition start_of (l : list ascii) : nat := match rfind is_sep l with Some i => S i | None => 0%nat end.

Lemma start_of_le : forall a, (start_of a <= List.length a)%nat.
Proof. intro a. unfold start_of. destruct (rfind is_sep a) as [i|] eqn:E; [apply rfind_lt in E|]; lia. Qed.

Lemma start_of_app : forall a s, existsb is_sep s = false -> start_of (a ++ s) = start_of a.
Proof. intros a s H. apply rfind_none in H. unfold start_of. rewrite rfind_app, H. reflexivity. Qed.

(* splitext read at the last dot c of a ++ c :: b: the extension is c :: b unless a separator follows the dot
   or the basename before the dot consists of dots only *)
Lemma splitext_l_dot : forall a c b, is_dot c = true -> existsb is_dot b = false ->
  splitext_l (a ++ c :: b) =
  if existsb is_sep (c :: b) then ((a ++ c :: b)%list, [])
  else if existsb (fun x => negb (is_dot x)) (skipn (start_of a) a) then (a, c :: b) else ((a ++ c :: b)%list, []).
Proof.
  intros a c b Hc Hb. unfold splitext_l. rewrite (rfind_last is_dot a c b Hc Hb), (rfind_app is_sep).
  destruct (existsb is_sep (c :: b)) eqn:Es.
  - destruct (rfind is_sep (c :: b)) as [i|] eqn:E; [|apply rfind_none in E; congruence].
    replace (S (List.length a + i) <=? List.length a)%nat with false by (symmetry; apply Nat.leb_gt; lia). reflexivity.
  - apply rfind_none in Es. rewrite Es. fold (start_of a).
    replace (start_of a <=? List.length a)%nat with true by (symmetry; apply Nat.leb_le, start_of_le).
    (* cut at the dot the path is a and c :: b, and the basename before the dot is a from start_of a on *)
    rewrite <- skipn_firstn_comm.
    assert (firstn (List.length a) (a ++ c :: b) = a) as ->.
    { rewrite firstn_app, Nat.sub_diag, firstn_all. apply app_nil_r. }
    assert (skipn (List.length a) (a ++ c :: b) = c :: b) as ->.
    { rewrite skipn_app, Nat.sub_diag, skipn_all. reflexivity. }
    reflexivity.
Qed.

Lemma splitext_l_nodot : forall p, existsb is_dot p = false -> splitext_l p = (p, []).
Proof. intros p H. apply rfind_none in H. unfold splitext_l. rewrite H. reflexivity. Qed.

Definition plain (s : list ascii) : Prop := existsb is_dot s = false /\ existsb is_sep s = false.

Lemma splitext_l_insert : forall p r e s, splitext_l p = (r, e) -> plain s ->
  splitext_l (r ++ s ++ e) = ((r ++ s)%list, e).
Proof.
  intros p r e s H [Hsd Hss]. destruct (rfind is_dot p) as [d|] eqn:Ed.
  - destruct (rfind_some _ _ _ Ed) as (a & c & b & -> & _ & Hc & Hb).
    rewrite (splitext_l_dot a c b Hc Hb) in H.
    assert (Hbs : existsb is_dot (b ++ s) = false) by (rewrite existsb_app, Hb, Hsd; reflexivity).
    assert (Ew : forall w, splitext_l ((a ++ c :: b) ++ s ++ []) = w <-> splitext_l (a ++ c :: (b ++ s)) = w)
      by (intro w; rewrite app_nil_r, <- app_assoc; reflexivity).
    destruct (existsb is_sep (c :: b)) eqn:Es; [|destruct (existsb _ (skipn (start_of a) a)) eqn:Ex]; injection H as <- <-.
    + apply Ew. rewrite (splitext_l_dot a c (b ++ s) Hc Hbs). change (c :: b ++ s)%list with ((c :: b) ++ s)%list.
      rewrite existsb_app, Es, <- app_assoc. reflexivity.
    + rewrite app_assoc, (splitext_l_dot (a ++ s) c b Hc Hb), Es, (start_of_app a s Hss), skipn_app, existsb_app, Ex.
      reflexivity.
    + apply Ew. rewrite (splitext_l_dot a c (b ++ s) Hc Hbs). change (c :: b ++ s)%list with ((c :: b) ++ s)%list.
      rewrite existsb_app, Es, Hss, Ex, <- app_assoc. reflexivity.
  - unfold splitext_l in H. rewrite Ed in H. injection H as <- <-. rewrite app_nil_r. apply splitext_l_nodot.
    apply rfind_none in Ed. rewrite existsb_app, Ed, Hsd. reflexivity.
Qed.

Open Scope string_scope.

Lemma la_app : forall a b, la (a ++ b)%string = (la a ++ la b)%list.
Proof. induction a as [|c a IH]; intro b; [reflexivity|]. unfold la in *. cbn. rewrite IH. reflexivity. Qed.

Lemma la_sl : forall l, la (sl l) = l.
Proof. exact list_ascii_of_string_of_list_ascii. Qed.

Lemma splitext_insert : forall p r e s, splitext p = (r, e) -> plain (la s) ->
  splitext (r ++ s ++ e)%string = ((r ++ s)%string, e).
Proof.
  intros p r e s H Hs. unfold splitext in H. destruct (splitext_l (la p)) as [r' e'] eqn:E.
  injection H as <- <-. unfold splitext. rewrite !la_app, !la_sl.
  rewrite (splitext_l_insert _ _ _ _ E Hs). rewrite sl_app, sl_la. reflexivity.
Qed.

Lemma suffixes_plain : forall s, In s suffixes -> plain (la s).
Proof.
  intros s H. cbn in H. destruct H as [<-|[<-|[<-|[]]]]; (split; reflexivity).
Qed.

Lemma out_name_splitext : forall filename root ext sfx, splitext filename = (root, ext) -> In sfx suffixes ->
  splitext (out_name sfx filename) = ((root ++ sfx)%string, ext) /\
  forall lowered, extension_of lowered (out_name sfx filename) = extension_of lowered filename.
Proof.
  intros f root ext sfx H Hs.
  assert (E : splitext (out_name sfx f) = ((root ++ sfx)%string, ext)).
  { rewrite (out_name_spec sfx f root ext H). apply (splitext_insert f root ext sfx H). apply suffixes_plain. exact Hs. }
  split; [exact E|]. intro lowered. unfold extension_of. rewrite E, H. reflexivity.
Qed.
