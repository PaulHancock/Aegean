(* C19 - Model/Cluster.v.  The generated leaves as equations; the stable insertion sort by key; relabelling of a list of groups
   (partitions, numbered); the DBSCAN variant as the connectivity classes of the link graph (Lib/Graph.v, computed by
   Lib/GraphFast.v): partition, same group = chain of links, invariance under permutation of the rows; the greedy variant:
   partition, every group chain-connected, invariance under permutation when the sort keys are distinct. *)
From Coq Require Import ZArith Bool List Lia Relations Permutation Sorted.
From Aegean Require Import Gen.ClusterShape Lib.Graph Lib.GraphFast Model.Cluster.
Import ListNotations.
Open Scope Z_scope.

Lemma dbscan_sort_key_spec f : dbscan_sort_key f = - f.
Proof. unfold dbscan_sort_key. lia. Qed.
Lemma dbscan_sort_reverse_spec : dbscan_sort_reverse = false.
Proof. reflexivity. Qed.
Lemma dbscan_first_island_spec : dbscan_first_island = 0.
Proof. reflexivity. Qed.
Lemma dbscan_first_source_spec : dbscan_first_source = 0.
Proof. reflexivity. Qed.
Lemma greedy_sort_key_spec f : greedy_sort_key f = - f.
Proof. unfold greedy_sort_key. lia. Qed.
Lemma greedy_sort_reverse_spec : greedy_sort_reverse = false.
Proof. reflexivity. Qed.
Lemma greedy_first_island_spec : greedy_first_island = 0.
Proof. reflexivity. Qed.
Lemma greedy_first_source_spec : greedy_first_source = 0.
Proof. reflexivity. Qed.
Lemma greedy_order_reversed_spec : greedy_order_reversed = true.
Proof. reflexivity. Qed.
Lemma greedy_decmin_spec d f : greedy_decmin d f = d - f.
Proof. unfold greedy_decmin. lia. Qed.
Lemma greedy_early_spec a b : greedy_early_new_group a b = true <-> a < b.
Proof. unfold greedy_early_new_group. rewrite Z.ltb_lt. tauto. Qed.

Definition key_desc (key : Z -> Z) (reverse : bool) : Prop :=
  forall s t, order_key key reverse s <= order_key key reverse t <-> s_flux t <= s_flux s.
Lemma neg_key_desc key : (forall f, key f = - f) -> key_desc key false.
Proof. intros H s t. unfold order_key. rewrite !H. lia. Qed.
Lemma dbscan_key_desc : key_desc dbscan_sort_key dbscan_sort_reverse.
Proof. rewrite dbscan_sort_reverse_spec. exact (neg_key_desc _ dbscan_sort_key_spec). Qed.
Lemma greedy_key_desc : key_desc greedy_sort_key greedy_sort_reverse.
Proof. rewrite greedy_sort_reverse_spec. exact (neg_key_desc _ greedy_sort_key_spec). Qed.

Local Opaque dbscan_sort_key dbscan_sort_reverse dbscan_first_island dbscan_first_source
  greedy_sort_key greedy_sort_reverse greedy_first_island greedy_first_source greedy_order_reversed
  greedy_decmin greedy_early_new_group.

Lemma zlist_eqb_spec a b : zlist_eqb a b = true <-> a = b.
Proof.
  revert b. induction a as [|x a IH]; intros [|y b]; cbn [zlist_eqb]; try (split; congruence).
  destruct (Z.eqb_spec x y) as [->|Hn].
  - rewrite IH. split; congruence.
  - split; congruence.
Qed.

Lemma pt_eqb_spec p q : pt_eqb p q = true <-> p = q.
Proof.
  destruct p as [x y z d], q as [x' y' z' d']. unfold pt_eqb. cbn [px py pz pd].
  rewrite !andb_true_iff, !Z.eqb_eq. split.
  - intros [[[-> ->] ->] ->]. reflexivity.
  - intros [= -> -> -> ->]. repeat split.
Qed.

Lemma source_eqb_true a b : source_eqb a b = true <-> a = b.
Proof.
  destruct a as [id pt dec flux isl src nbrs rest], b as [id' pt' dec' flux' isl' src' nbrs' rest']. unfold source_eqb.
  cbn [s_id s_pt s_dec s_flux s_island s_source s_nbrs s_rest]. split.
  - destruct (Z.eqb_spec id id') as [->|]; [|discriminate]. intros H.
    do 6 (apply andb_prop in H as (H & ?)). apply pt_eqb_spec in H.
    repeat match goal with
           | E : (_ =? _) = true |- _ => apply Z.eqb_eq in E
           | E : zlist_eqb _ _ = true |- _ => apply zlist_eqb_spec in E
           end.
    congruence.
  - intros [= -> -> -> -> -> -> -> ->].
    rewrite !Z.eqb_refl, (proj2 (pt_eqb_spec pt' pt') eq_refl), (proj2 (zlist_eqb_spec nbrs' nbrs') eq_refl). reflexivity.
Qed.

Lemma source_eqb_spec a b : reflect (a = b) (source_eqb a b).
Proof.
  apply iff_reflect. symmetry. apply source_eqb_true.
Qed.

Definition ids (l : list source) : list Z := map s_id l.

Lemma In_ids_filter p l s : NoDup (ids l) -> In s l -> In (s_id s) (ids (filter p l)) -> p s = true.
Proof.
  intros Hnd Hs Hin. apply in_map_iff in Hin as (s0 & E & H0). apply filter_In in H0 as (H0 & Hp).
  rewrite <- (NoDup_map_inj s_id l s0 s); auto.
Qed.

Section SortFacts.
Variable key : source -> Z.
Let le_key (a b : source) : Prop := key a <= key b.

Lemma insert_perm x l : Permutation (insert key x l) (x :: l).
Proof.
  induction l as [|y t IH]; cbn [insert]; [reflexivity|].
  destruct (key x <=? key y); [reflexivity|].
  rewrite IH. apply perm_swap.
Qed.

Lemma isort_perm l : Permutation (isort key l) l.
Proof.
  induction l as [|x l IH]; cbn; [constructor|].
  fold (isort key l). rewrite insert_perm. constructor. exact IH.
Qed.

Lemma isort_map_NoDup {B} (f : source -> B) l : NoDup (map f l) -> NoDup (map f (isort key l)).
Proof. apply Permutation_NoDup, Permutation_map, Permutation_sym, isort_perm. Qed.

Lemma insert_sorted x l : StronglySorted le_key l -> StronglySorted le_key (insert key x l).
Proof.
  induction 1 as [|y t Ht IH Hy]; cbn [insert].
  - constructor; constructor.
  - destruct (Z.leb_spec (key x) (key y)) as [Hle|Hgt].
    + constructor; [constructor; assumption|]. constructor; [exact Hle|].
      eapply Forall_impl; [|exact Hy]. unfold le_key. intros z Hz. lia.
    + constructor; [exact IH|]. apply (Permutation_Forall (Permutation_sym (insert_perm x t))).
      constructor; [unfold le_key; lia | exact Hy].
Qed.

Lemma isort_sorted l : StronglySorted le_key (isort key l).
Proof.
  induction l as [|x l IH]; cbn; [constructor|]. apply insert_sorted, IH.
Qed.

Lemma sorted_head_min a t y : StronglySorted le_key (a :: t) -> In y (a :: t) -> key a <= key y.
Proof.
  intros Hs [<-|Hy]; [lia|]. apply StronglySorted_inv in Hs as (_ & Ha).
  rewrite Forall_forall in Ha. exact (Ha y Hy).
Qed.

(* sorted lists with pairwise distinct keys that are permutations of each other are equal: each head is the
   minimum of both lists *)
Lemma sorted_perm_eq l l' :
  StronglySorted le_key l -> StronglySorted le_key l' -> Permutation l l' -> NoDup (map key l) -> l = l'.
Proof.
  revert l'. induction l as [|a t IH]; intros l' Hs Hs' Hp Hnd.
  - apply Permutation_nil in Hp. auto.
  - destruct l' as [|a' t']; [apply Permutation_sym, Permutation_nil in Hp; discriminate|].
    assert (Hin : In a (a' :: t')) by (apply (Permutation_in _ Hp); left; auto).
    assert (Hin' : In a' (a :: t)) by (apply (Permutation_in _ (Permutation_sym Hp)); left; auto).
    assert (a = a').
    { apply (NoDup_map_inj key (a :: t)); [exact Hnd|left; reflexivity|exact Hin'|].
      apply Z.le_antisymm; eapply sorted_head_min; eassumption. }
    subst a'. f_equal. apply IH.
    + apply (StronglySorted_inv Hs).
    + apply (StronglySorted_inv Hs').
    + apply Permutation_cons_inv in Hp. exact Hp.
    + inversion Hnd; assumption.
Qed.

Lemma isort_perm_eq l l' : Permutation l l' -> NoDup (map key l) -> isort key l = isort key l'.
Proof.
  intros Hp Hnd. apply sorted_perm_eq; try apply isort_sorted.
  - rewrite isort_perm, Hp. symmetry. apply isort_perm.
  - apply isort_map_NoDup, Hnd.
Qed.
End SortFacts.

Lemma index_of_nonneg i l : 0 <= index_of i l.
Proof. induction l as [|y l IH]; cbn [index_of]; [lia|]. destruct (s_id y =? i); lia. Qed.

Lemma index_of_head y l : index_of (s_id y) (y :: l) = 0.
Proof. cbn [index_of]. rewrite Z.eqb_refl. reflexivity. Qed.

Lemma index_of_tail y l s : ~ In (s_id y) (ids l) -> In s l -> index_of (s_id s) (y :: l) = 1 + index_of (s_id s) l.
Proof.
  intros Hy Hs. cbn [index_of]. destruct (Z.eqb_spec (s_id y) (s_id s)) as [E|E]; [|reflexivity].
  exfalso. apply Hy. rewrite E. apply in_map, Hs.
Qed.

Lemma index_of_self l : NoDup (ids l) ->
  map (fun s => index_of (s_id s) l) l = map Z.of_nat (seq 0 (length l)).
Proof.
  induction l as [|y t IH]; intros Hnd; [reflexivity|].
  inversion Hnd as [|? ? Hy Ht]; subst.
  cbn [map length seq]. rewrite index_of_head. f_equal.
  transitivity (map (fun k => 1 + k) (map Z.of_nat (seq 0 (length t)))).
  - rewrite <- (IH Ht), map_map. apply map_ext_in. intros s Hs. apply index_of_tail; assumption.
  - rewrite <- seq_shift, !map_map. apply map_ext. intros k. lia.
Qed.

Lemma index_of_sorted key l : StronglySorted (fun a b => key a <= key b) l -> NoDup (ids l) ->
  forall s t, In s l -> In t l -> index_of (s_id s) l < index_of (s_id t) l -> key s <= key t.
Proof.
  induction 1 as [|y l Hl IH Hy]; intros Hnd s t Hs Ht Hlt; [destruct Hs|].
  inversion Hnd as [|? ? Hyn Hndl]; subst. rewrite Forall_forall in Hy.
  destruct Ht as [<-|Ht].
  - rewrite index_of_head in Hlt. pose proof (index_of_nonneg (s_id s) (y :: l)). lia.
  - destruct Hs as [<-|Hs]; [exact (Hy t Ht)|].
    rewrite !index_of_tail in Hlt by assumption. apply IH; auto. lia.
Qed.

Definition label (s : source) : Z * Z := (s_island s, s_source s).

(* what both regrouping functions promise of their result: it holds every source of the catalogue once, changed
   at most in its two labels, in non-empty groups ... *)
Definition partitions (out : list (list source)) (cat : list source) : Prop :=
  Permutation (map strip (concat out)) (map strip cat) /\ Permutation (ids (concat out)) (ids cat) /\
  (forall g, In g out -> g <> []).

(* ... and group i carries island isle + i, its sources the numbers fs, fs + 1, ... by non-increasing flux,
   so that no (island, source) pair occurs twice *)
Definition numbered (fs isle : Z) (out : list (list source)) : Prop :=
  (forall i g, nth_error out i = Some g ->
     (forall s, In s g -> s_island s = isle + Z.of_nat i) /\
     Permutation (map s_source g) (map (fun k => fs + Z.of_nat k) (seq 0 (length g))) /\
     (forall s t, In s g -> In t g -> s_source s < s_source t -> s_flux t <= s_flux s)) /\
  NoDup (map label (concat out)).

Section Relabel.
Variable key : Z -> Z.
Variable reverse : bool.
Variable fs : Z.
Hypothesis Hdesc : key_desc key reverse.

Lemma relabel_group_strip isle g : map strip (relabel_group key reverse fs isle g) = map strip g.
Proof. unfold relabel_group. rewrite map_map. reflexivity. Qed.

Lemma relabel_group_ids isle g : ids (relabel_group key reverse fs isle g) = ids g.
Proof. unfold relabel_group, ids. rewrite map_map. reflexivity. Qed.

Lemma relabel_group_length isle g : length (relabel_group key reverse fs isle g) = length g.
Proof. unfold relabel_group. apply map_length. Qed.

Lemma relabel_group_island isle g s : In s (relabel_group key reverse fs isle g) -> s_island s = isle.
Proof. unfold relabel_group. intros H. apply in_map_iff in H as (s0 & <- & _). reflexivity. Qed.

Lemma relabel_group_sources isle g : NoDup (ids g) ->
  Permutation (map s_source (relabel_group key reverse fs isle g))
              (map (fun k => fs + Z.of_nat k) (seq 0 (length g))).
Proof.
  intros Hnd. unfold relabel_group. rewrite map_map. cbn [s_source set_labels].
  set (sorted := isort (order_key key reverse) g).
  assert (Hp : Permutation g sorted) by (symmetry; apply isort_perm).
  rewrite (Permutation_map (fun s => fs + index_of (s_id s) sorted) Hp).
  rewrite <- (map_map (fun s => index_of (s_id s) sorted) (fun k => fs + k)).
  rewrite index_of_self, map_map by apply (isort_map_NoDup _ s_id), Hnd.
  rewrite (Permutation_length Hp). reflexivity.
Qed.

Lemma relabel_group_order isle g : NoDup (ids g) ->
  forall s t, In s (relabel_group key reverse fs isle g) -> In t (relabel_group key reverse fs isle g) ->
  s_source s < s_source t -> s_flux t <= s_flux s.
Proof.
  intros Hnd s t Hs Ht Hlt. unfold relabel_group in Hs, Ht.
  apply in_map_iff in Hs as (s0 & <- & Hs0). apply in_map_iff in Ht as (t0 & <- & Ht0).
  cbn [s_source s_flux set_labels] in *.
  pose proof (isort_perm (order_key key reverse) g) as Hp.
  apply Hdesc, (index_of_sorted _ (isort (order_key key reverse) g)).
  - apply isort_sorted.
  - apply (isort_map_NoDup _ s_id), Hnd.
  - rewrite Hp. exact Hs0.
  - rewrite Hp. exact Ht0.
  - lia.
Qed.

Lemma relabel_from_map {B} (f : source -> B) isle gs :
  (forall i g, map f (relabel_group key reverse fs i g) = map f g) ->
  map (map f) (relabel_from key reverse fs isle gs) = map (map f) gs.
Proof.
  intros Hf. revert isle. induction gs as [|g t IH]; intros isle; cbn [relabel_from map]; [reflexivity|].
  rewrite Hf, IH. reflexivity.
Qed.

Lemma relabel_from_strip isle gs :
  map strip (concat (relabel_from key reverse fs isle gs)) = map strip (concat gs).
Proof. rewrite !concat_map, (relabel_from_map strip) by apply relabel_group_strip. reflexivity. Qed.

Lemma relabel_from_ids isle gs : map ids (relabel_from key reverse fs isle gs) = map ids gs.
Proof. apply (relabel_from_map s_id), relabel_group_ids. Qed.

Lemma relabel_from_length isle gs : length (relabel_from key reverse fs isle gs) = length gs.
Proof. revert isle. induction gs as [|g t IH]; intros isle; cbn [relabel_from length]; auto. Qed.

Lemma relabel_from_nth isle gs i g' : nth_error (relabel_from key reverse fs isle gs) i = Some g' ->
  exists g, nth_error gs i = Some g /\ g' = relabel_group key reverse fs (isle + Z.of_nat i) g.
Proof.
  revert isle i. induction gs as [|g t IH]; intros isle i H; cbn [relabel_from] in H.
  - destruct i; discriminate.
  - destruct i as [|i]; cbn [nth_error] in *.
    + injection H as <-. exists g. split; auto. f_equal. lia.
    + destruct (IH _ _ H) as (g0 & H0 & ->). exists g0. split; auto. f_equal. lia.
Qed.

Lemma relabel_from_In isle gs g' : In g' (relabel_from key reverse fs isle gs) ->
  exists g i, In g gs /\ g' = relabel_group key reverse fs i g /\ isle <= i.
Proof.
  intros H. apply In_nth_error in H as (i & H). apply relabel_from_nth in H as (g & Hg & ->).
  exists g, (isle + Z.of_nat i). repeat split; [eapply nth_error_In; eauto|lia].
Qed.

Lemma relabel_group_labels_NoDup isle g : NoDup (ids g) ->
  NoDup (map label (relabel_group key reverse fs isle g)).
Proof.
  intros Hnd.
  assert (Hs : NoDup (map s_source (relabel_group key reverse fs isle g))).
  { eapply Permutation_NoDup; [symmetry; apply relabel_group_sources, Hnd|].
    apply FinFun.Injective_map_NoDup; [|apply seq_NoDup]. intros a b. lia. }
  apply (NoDup_map_inv snd). rewrite map_map. exact Hs.
Qed.

Lemma relabel_from_labels_NoDup isle gs : (forall g, In g gs -> NoDup (ids g)) ->
  NoDup (map label (concat (relabel_from key reverse fs isle gs))).
Proof.
  revert isle. induction gs as [|g t IH]; intros isle Hnd; cbn [relabel_from concat]; [constructor|].
  rewrite map_app. apply NoDup_app_intro.
  - apply relabel_group_labels_NoDup, Hnd. left; auto.
  - apply IH. intros g0 H0. apply Hnd. right; auto.
  - intros lb H1 H2.
    apply in_map_iff in H1 as (s1 & <- & H1). apply relabel_group_island in H1.
    apply in_map_iff in H2 as (s2 & E & H2). apply in_concat in H2 as (g2 & Hg2 & H2).
    apply relabel_from_In in Hg2 as (g0 & i & _ & -> & Hi). apply relabel_group_island in H2.
    unfold label in E. injection E as E1 _. lia.
Qed.

Lemma relabel_partition isle gs cat : Permutation (concat gs) cat -> (forall g, In g gs -> g <> []) ->
  partitions (relabel_from key reverse fs isle gs) cat.
Proof.
  intros Hp Hne.
  assert (H1 : Permutation (map strip (concat (relabel_from key reverse fs isle gs))) (map strip cat))
    by (rewrite relabel_from_strip; apply Permutation_map, Hp).
  split; [exact H1|split].
  - pose proof (Permutation_map s_id H1) as H2. rewrite !map_map in H2. exact H2.
  - intros g Hg. apply relabel_from_In in Hg as (g0 & i & Hg0 & -> & _). apply Hne in Hg0.
    destruct g0; [congruence | discriminate].
Qed.

Lemma relabel_numbering isle gs : (forall g, In g gs -> NoDup (ids g)) ->
  numbered fs isle (relabel_from key reverse fs isle gs).
Proof.
  intros Hg. split; [|apply relabel_from_labels_NoDup, Hg].
  intros i g' Hi. apply relabel_from_nth in Hi as (g & Hgi & ->).
  assert (Hgn : NoDup (ids g)) by (apply Hg; eapply nth_error_In; eauto).
  split; [intros s; apply relabel_group_island|]. rewrite relabel_group_length.
  split; [apply relabel_group_sources | apply relabel_group_order]; exact Hgn.
Qed.
End Relabel.

Lemma uniq_labels_In labels l : In l (uniq_labels labels) <-> In l labels.
Proof.
  unfold uniq_labels. rewrite filter_In, existsb_exists, in_seq. split.
  - intros (_ & x & Hx & E). apply Nat.eqb_eq in E. subst. exact Hx.
  - intros H. split.
    + pose proof (proj1 (list_max_le labels _) (le_n _)) as Hmax. rewrite Forall_forall in Hmax.
      specialize (Hmax l H). lia.
    + exists l. split; auto. apply Nat.eqb_refl.
Qed.

Lemma uniq_labels_NoDup labels : NoDup (uniq_labels labels).
Proof. unfold uniq_labels. apply NoDup_filter, seq_NoDup. Qed.

Lemma rows_with_map (f : source -> nat) cat l :
  rows_with (map f cat) cat l = filter (fun s => Nat.eqb (f s) l) cat.
Proof.
  unfold rows_with. induction cat as [|s cat IH]; cbn; [reflexivity|].
  destruct (Nat.eqb (f s) l); cbn; rewrite IH; reflexivity.
Qed.

Definition groups_by (f : source -> nat) (cat : list source) : list (list source) :=
  map (fun l => filter (fun s => Nat.eqb (f s) l) cat) (uniq_labels (map f cat)).

Lemma groups_of_map f cat : groups_of (map f cat) cat = groups_by f cat.
Proof. unfold groups_of, groups_by. apply map_ext. intros l. apply rows_with_map. Qed.

Lemma groups_by_In f cat g : In g (groups_by f cat) <->
  exists l, In l (map f cat) /\ g = filter (fun s => Nat.eqb (f s) l) cat.
Proof.
  unfold groups_by. rewrite in_map_iff. setoid_rewrite uniq_labels_In.
  split; intros (l & H1 & H2); exists l; auto.
Qed.

Lemma groups_by_nonempty f cat g : In g (groups_by f cat) -> g <> [].
Proof.
  intros H. apply groups_by_In in H as (l & Hl & ->). apply in_map_iff in Hl as (s & E & Hs).
  intros Hnil. apply (in_nil (a := s)). rewrite <- Hnil. apply filter_In. split; [exact Hs | apply Nat.eqb_eq, E].
Qed.

Lemma groups_by_NoDup_ids f cat g : NoDup (ids cat) -> In g (groups_by f cat) -> NoDup (ids g).
Proof. intros Hnd H. apply groups_by_In in H as (l & _ & ->). apply NoDup_map_filter, Hnd. Qed.

Lemma concat_filter_perm (f : source -> nat) cat L : NoDup L -> NoDup cat -> (forall s, In s cat -> In (f s) L) ->
  Permutation (concat (map (fun l => filter (fun s => Nat.eqb (f s) l) cat) L)) cat.
Proof.
  intros HL Hcat Hcov. apply NoDup_Permutation; auto.
  - clear Hcov. induction L as [|l L IH]; cbn; [constructor|].
    inversion HL as [|? ? Hl HL']; subst. apply NoDup_app_intro; auto.
    + apply NoDup_filter, Hcat.
    + intros s H1 H2. apply filter_In in H1 as (_ & E1). apply Nat.eqb_eq in E1.
      apply in_concat in H2 as (g & Hg & H2). apply in_map_iff in Hg as (l' & <- & Hl').
      apply filter_In in H2 as (_ & E2). apply Nat.eqb_eq in E2. congruence.
  - intros s. rewrite in_concat. split.
    + intros (g & Hg & Hs). apply in_map_iff in Hg as (l & <- & _). apply filter_In in Hs. tauto.
    + intros Hs. exists (filter (fun s0 => Nat.eqb (f s0) (f s)) cat). split.
      * apply in_map_iff. exists (f s). split; auto.
      * apply filter_In. split; auto. apply Nat.eqb_refl.
Qed.

Lemma groups_by_perm f cat : NoDup (ids cat) -> Permutation (concat (groups_by f cat)) cat.
Proof.
  intros Hnd. unfold groups_by. apply concat_filter_perm.
  - apply uniq_labels_NoDup.
  - apply (NoDup_map_inv s_id), Hnd.
  - intros s Hs. apply uniq_labels_In, in_map, Hs.
Qed.

Definition same_group (out : list (list source)) (s t : source) : Prop :=
  exists g, In g out /\ In (s_id s) (ids g) /\ In (s_id t) (ids g).

Lemma same_group_ids out s t :
  same_group out s t <-> exists I, In I (map ids out) /\ In (s_id s) I /\ In (s_id t) I.
Proof.
  split.
  - intros (g & Hg & H). exists (ids g). split; [apply in_map, Hg | exact H].
  - intros (I & HI & H). apply in_map_iff in HI as (g & <- & Hg). exists g. auto.
Qed.

Lemma groups_by_same f cat s t : NoDup (ids cat) -> In s cat -> In t cat ->
  (same_group (groups_by f cat) s t <-> f s = f t).
Proof.
  intros Hnd Hs Ht. split.
  - intros (g & Hg & H1 & H2). apply groups_by_In in Hg as (l & _ & ->).
    apply In_ids_filter, Nat.eqb_eq in H1, H2; auto. congruence.
  - intros E. exists (filter (fun s0 => Nat.eqb (f s0) (f s)) cat). split; [|split].
    + apply groups_by_In. exists (f s). split; [apply in_map, Hs | reflexivity].
    + apply in_map, filter_In. split; auto. apply Nat.eqb_refl.
    + apply in_map, filter_In. split; auto. apply Nat.eqb_eq. auto.
Qed.

Definition symmetric (link : source -> source -> bool) : Prop := forall x y, link x y = true -> link y x = true.
(* symmetry on the rows of one catalogue only: what a witness can be checked for (Refuted/C19_greedy.v) *)
Definition symmetric_on (cat : list source) (link : source -> source -> bool) : Prop :=
  forall x y, In x cat -> In y cat -> link x y = true -> link y x = true.
Definition linked (link : source -> source -> bool) (cat : list source) : source -> source -> Prop :=
  connected source link cat.

Lemma classes_eq link cat : classes link cat = components source source_eqb link cat.
Proof. apply components_fast_eq. Qed.

Section Classes.
Variable link : source -> source -> bool.
Variable cat : list source.
Hypothesis Hnd : NoDup cat.
Hypothesis Hsym : symmetric link.
Let comps := components source source_eqb link cat.

Lemma class_index_hit cls s : (exists C, In C cls /\ In s C) ->
  exists C, nth_error cls (class_index cls s) = Some C /\ In s C.
Proof.
  induction cls as [|D cls IH]; intros (C & HC & Hs); [destruct HC|].
  cbn [class_index]. destruct (mem source source_eqb s D) eqn:E.
  - exists D. split; auto. apply (mem_In source source_eqb source_eqb_spec), E.
  - destruct HC as [->|HC].
    + apply (mem_In source source_eqb source_eqb_spec) in Hs. congruence.
    + apply IH. eauto.
Qed.

Lemma class_index_In s : In s cat -> exists C, nth_error comps (class_index comps s) = Some C /\ In s C.
Proof.
  intros Hs. apply class_index_hit.
  apply (components_cover source source_eqb source_eqb_spec link cat Hnd s Hs).
Qed.

Lemma class_index_eq_iff s t : In s cat -> In t cat ->
  (class_index comps s = class_index comps t <-> linked link cat s t).
Proof.
  intros Hs Ht.
  destruct (class_index_In s Hs) as (C & Hi & HsC). destruct (class_index_In t Ht) as (D & Hj & HtD).
  rewrite <- (components_spec source source_eqb source_eqb_spec link cat Hnd Hsym C s t (nth_error_In _ _ Hi) HsC).
  split.
  - intros E. rewrite <- E, Hi in Hj. injection Hj as <-. exact HtD.
  - (* t lies in the class of s and in its own: classes at different positions are disjoint *)
    intros HtC. destruct (Nat.eq_dec (class_index comps s) (class_index comps t)) as [E|E]; [exact E|].
    destruct (components_disjoint source source_eqb source_eqb_spec link cat Hnd Hsym _ _ _ _ Hi Hj E t HtC HtD).
Qed.
End Classes.

Lemma connected_perm link cat cat' s t : (forall x, In x cat -> In x cat') ->
  connected source link cat s t -> connected source link cat' s t.
Proof.
  intros Hincl H. induction H as [x y (Hx & Hy & Ha)|x|x y z _ IH1 _ IH2].
  - apply rt_step. split; [|split]; auto.
  - apply rt_refl.
  - eapply rt_trans; eauto.
Qed.

(* the library hypothesis: labels_ of DBSCAN(min_samples = 1) are the indices of the connectivity classes *)
Definition dbscan_ok (link : source -> source -> bool) (dbscan : list source -> list nat) : Prop :=
  forall cat, dbscan cat = comp_labels link cat.

Section Dbscan.
Variable link : source -> source -> bool.
Variable dbscan : list source -> list nat.      (* sklearn.cluster.DBSCAN(eps, min_samples = 1).fit(X).labels_ *)
Hypothesis Hlib : dbscan_ok link dbscan.

Let cidx (cat : list source) : source -> nat := class_index (classes link cat).

Lemma regroup_dbscan_unfold cat : regroup_dbscan dbscan cat =
  relabel_from dbscan_sort_key dbscan_sort_reverse dbscan_first_source dbscan_first_island (groups_by (cidx cat) cat).
Proof.
  unfold regroup_dbscan, regroup_dbscan_with. rewrite Hlib. unfold comp_labels.
  rewrite groups_of_map. reflexivity.
Qed.

Lemma dbscan_partition cat : NoDup (ids cat) -> partitions (regroup_dbscan dbscan cat) cat.
Proof.
  intros Hnd. rewrite regroup_dbscan_unfold. apply relabel_partition; [apply groups_by_perm, Hnd | apply groups_by_nonempty].
Qed.

Lemma dbscan_same_group cat s t : NoDup (ids cat) -> symmetric link -> In s cat -> In t cat ->
  (same_group (regroup_dbscan dbscan cat) s t <-> linked link cat s t).
Proof.
  intros Hnd Hsym Hs Ht.
  rewrite regroup_dbscan_unfold, same_group_ids, relabel_from_ids, <- same_group_ids.
  rewrite (groups_by_same (cidx cat) cat s t Hnd Hs Ht).
  unfold cidx. rewrite classes_eq.
  apply class_index_eq_iff; auto. apply (NoDup_map_inv s_id), Hnd.
Qed.

Lemma dbscan_perm_invariant cat cat' s t : NoDup (ids cat) -> symmetric link -> Permutation cat cat' ->
  In s cat -> In t cat ->
  (same_group (regroup_dbscan dbscan cat) s t <-> same_group (regroup_dbscan dbscan cat') s t).
Proof.
  intros Hnd Hsym Hp Hs Ht.
  assert (Hnd' : NoDup (ids cat')) by (eapply Permutation_NoDup; [apply Permutation_map, Hp|exact Hnd]).
  rewrite (dbscan_same_group cat s t Hnd Hsym Hs Ht).
  rewrite (dbscan_same_group cat' s t Hnd' Hsym (Permutation_in _ Hp Hs) (Permutation_in _ Hp Ht)).
  split; apply connected_perm; intros x; apply Permutation_in; [|symmetry]; exact Hp.
Qed.
End Dbscan.

(* numbering and attributes: true for whatever the clustering library returns *)
Lemma rows_with_NoDup labels cat l : NoDup (ids cat) -> NoDup (ids (rows_with labels cat l)).
Proof. intros H. unfold rows_with, ids. rewrite map_map. apply NoDup_map_filter, NoDup_map_combine, H. Qed.
Lemma rows_with_incl labels cat l : incl (rows_with labels cat l) cat.
Proof.
  intros s Hs. unfold rows_with in Hs. apply in_map_iff in Hs as ((k & s1) & <- & H1).
  apply filter_In in H1 as (H1 & _). apply in_combine_r in H1. exact H1.
Qed.

Lemma dbscan_numbering (dbscan : list source -> list nat) cat : NoDup (ids cat) ->
  numbered 0 0 (regroup_dbscan dbscan cat).
Proof.
  intros Hnd. unfold regroup_dbscan, regroup_dbscan_with. rewrite dbscan_first_island_spec, dbscan_first_source_spec.
  apply (relabel_numbering _ _ 0 dbscan_key_desc 0).
  intros g Hg. unfold groups_of in Hg. apply in_map_iff in Hg as (l & <- & _). apply rows_with_NoDup, Hnd.
Qed.

Lemma dbscan_attributes (dbscan : list source -> list nat) cat s' :
  In s' (concat (regroup_dbscan dbscan cat)) -> exists s, In s cat /\ s_id s = s_id s' /\ strip s' = strip s.
Proof.
  intros H. apply (in_map strip) in H. unfold regroup_dbscan, regroup_dbscan_with in H.
  rewrite relabel_from_strip in H. apply in_map_iff in H as (s & E & Hs).
  apply in_concat in Hs as (g & Hg & Hs). unfold groups_of in Hg. apply in_map_iff in Hg as (l & <- & _).
  exists s. split; [exact (rows_with_incl _ _ _ s Hs)|]. split; [exact (f_equal s_id E) | symmetry; exact E].
Qed.

Lemma link_chord_spec en ed a b : link_chord en ed a b = true <->
  ed * chord2_num (s_pt a) (s_pt b) <= en * chord2_den (s_pt a) (s_pt b).
Proof. unfold link_chord. apply Z.leb_le. Qed.

Lemma chord2_num_sym p q : chord2_num p q = chord2_num q p.
Proof. unfold chord2_num, sq. ring. Qed.
Lemma chord2_den_sym p q : chord2_den p q = chord2_den q p.
Proof. unfold chord2_den, sq. ring. Qed.

Lemma link_chord_sym en ed : symmetric (link_chord en ed).
Proof.
  intros a b. rewrite !link_chord_spec, (chord2_num_sym (s_pt b)), (chord2_den_sym (s_pt b)). auto.
Qed.

Lemma tabulate_exact link cat a b : NoDup (ids cat) -> In b cat ->
  link_tbl (tabulate link cat a) (tabulate link cat b) = link a b.
Proof.
  intros Hnd Hb. unfold link_tbl, tabulate. cbn [s_id s_nbrs set_nbrs].
  apply eq_true_iff_eq. rewrite existsb_exists. split.
  - intros (i & Hi & E). apply Z.eqb_eq in E. subst i.
    exact (In_ids_filter (link a) cat b Hnd Hb Hi).
  - intros Hl. exists (s_id b). split; [|apply Z.eqb_refl].
    apply in_map, filter_In. auto.
Qed.

Definition glinked (link : source -> source -> bool) (g : list source) : source -> source -> Prop :=
  clos_refl_sym_trans source (fun a b => In a g /\ In b g /\ link a b = true).

Lemma glinked_incl link g g' x y : incl g g' -> glinked link g x y -> glinked link g' x y.
Proof.
  intros Hi H. induction H as [a b (Ha & Hb & Hl)|a|a b _ IH|a b c _ IH1 _ IH2].
  - apply rst_step. auto.
  - apply rst_refl.
  - apply rst_sym, IH.
  - eapply rst_trans; eauto.
Qed.

Section GreedyFacts.
Variable link : source -> source -> bool.
Variable far : Z.
Hypothesis Hfar : 0 <= far.

(* sources are placed in order of decreasing declination: the loop runs over the ascending sort from its far
   end, so each source met is a minimum of those already placed *)
Lemma greedy_fold_eq cat : fold_left (gstep link far) (dec_order cat) [] =
  fold_right (fun rec gs => gstep link far gs rec) [] (isort s_dec cat).
Proof.
  unfold dec_order. rewrite greedy_order_reversed_spec.
  transitivity (fold_right (fun rec gs => gstep link far gs rec) [] (rev (rev (isort s_dec cat)))).
  - symmetry. apply fold_left_rev_right.
  - rewrite rev_involutive. reflexivity.
Qed.

Definition early (rec : source) (g : list source) : bool :=
  greedy_early_new_group (last_dec g) (greedy_decmin (s_dec rec) far).

(* the early `new group` test does not fire on a group whose head is at least as far north as rec: far >= 0 *)
Lemma early_false rec m g : s_dec rec <= s_dec m -> early rec (m :: g) = false.
Proof.
  intros H. apply not_true_is_false. unfold early. rewrite greedy_early_spec, greedy_decmin_spec.
  cbn [last_dec]. lia.
Qed.

Lemma scan_no_early rec gs : Forall (fun g => early rec g = false) gs ->
  scan link far rec gs = (O, None) \/
  exists pre g post, gs = pre ++ g :: post /\ near link rec g = true /\
                     scan link far rec gs = (O, Some (pre ++ (rec :: g) :: post)).
Proof.
  induction 1 as [|g t Hg _ IH]; cbn [scan]; [left; reflexivity|].
  fold (early rec g). rewrite Hg. destruct (near link rec g) eqn:En.
  - right. exists [], g, t. auto.
  - destruct IH as [-> | (pre & g0 & post & -> & Hn & ->)]; [left; reflexivity|].
    right. exists (g :: pre), g0, post. auto.
Qed.

Inductive tree_conn : list source -> Prop :=
| tc_one x : tree_conn [x]
| tc_cons x g : tree_conn g -> existsb (link x) g = true -> tree_conn (x :: g).

Lemma tree_conn_nonempty g : tree_conn g -> g <> [].
Proof. destruct 1; discriminate. Qed.

Lemma tree_conn_linked g : tree_conn g -> forall x y, In x g -> In y g -> glinked link g x y.
Proof.
  induction 1 as [x|x g Hg IH Hex]; intros a b Ha Hb.
  - destruct Ha as [<-|[]], Hb as [<-|[]]. apply rst_refl.
  - (* all of x :: g is linked to the member m of g through which x joined *)
    apply existsb_exists in Hex as (m & Hm & Hl).
    assert (Hall : forall c, In c (x :: g) -> glinked link (x :: g) m c).
    { intros c [<-|Hc].
      - apply rst_sym, rst_step. cbn. auto.
      - apply (glinked_incl link g); [intros z Hz; right; exact Hz | apply IH; assumption]. }
    eapply rst_trans; [apply rst_sym, Hall, Ha | apply Hall, Hb].
Qed.

Lemma gstep_ok rec gs : Forall tree_conn gs -> Forall (fun m => s_dec rec <= s_dec m) (concat gs) ->
  Permutation (concat (gstep link far gs rec)) (rec :: concat gs) /\ Forall tree_conn (gstep link far gs rec).
Proof.
  intros Ht Hb.
  assert (Hk : Forall (fun g => early rec g = false) gs).
  { rewrite Forall_forall in *. intros g Hg. pose proof (Ht g Hg) as Hc.
    destruct Hc as [m|m g' _ _]; apply early_false, Hb, in_concat; eexists; (split; [exact Hg | left; reflexivity]). }
  unfold gstep. destruct (scan_no_early rec gs Hk) as [-> | (pre & g & post & -> & Hn & ->)]; cbn [repeat app].
  - split; [reflexivity|]. constructor; [apply tc_one | exact Ht].
  - split; [rewrite !concat_app; cbn [concat app]; symmetry; apply Permutation_middle|].
    apply Forall_app in Ht as (Hpre & Hpost). inversion Hpost as [|? ? Hg Hpost']; subst.
    apply Forall_app. split; [exact Hpre|]. constructor; [|exact Hpost']. apply tc_cons; assumption.
Qed.

Lemma fold_gstep asc : StronglySorted (fun a b => s_dec a <= s_dec b) asc ->
  Permutation (concat (fold_right (fun rec gs => gstep link far gs rec) [] asc)) asc /\
  Forall tree_conn (fold_right (fun rec gs => gstep link far gs rec) [] asc).
Proof.
  induction 1 as [|rec asc _ (Hp & Ht) Hrec]; cbn [fold_right]; [split; constructor|].
  destruct (gstep_ok rec _ Ht (Permutation_Forall (Permutation_sym Hp) Hrec)) as (Hp' & Ht').
  split; [rewrite Hp', Hp; reflexivity | exact Ht'].
Qed.

Lemma greedy_fold_ok cat : Permutation (concat (fold_left (gstep link far) (dec_order cat) [])) cat /\
  Forall tree_conn (fold_left (gstep link far) (dec_order cat) []).
Proof.
  rewrite greedy_fold_eq. destruct (fold_gstep _ (isort_sorted s_dec cat)) as (Hp & Ht).
  split; [rewrite Hp; apply isort_perm | exact Ht].
Qed.

Lemma greedy_groups_perm cat : Permutation (concat (greedy_groups link far cat)) cat.
Proof. unfold greedy_groups. rewrite concat_map_rev_rev. apply greedy_fold_ok. Qed.

(* groups are kept newest member first while they grow and are reversed at the end *)
Lemma greedy_groups_tree cat g : In g (greedy_groups link far cat) -> tree_conn (rev g).
Proof.
  unfold greedy_groups. intros Hg. apply in_map_iff in Hg as (g0 & <- & Hg0). rewrite rev_involutive.
  pose proof (proj2 (greedy_fold_ok cat)) as Ht. rewrite Forall_forall in Ht. apply Ht, in_rev, Hg0.
Qed.

Lemma greedy_groups_connected cat g : In g (greedy_groups link far cat) ->
  forall x y, In x g -> In y g -> glinked link g x y.
Proof.
  intros Hg x y Hx Hy. apply in_rev in Hx, Hy.
  apply (glinked_incl link (rev g)); [intros z; apply in_rev|].
  apply tree_conn_linked; [exact (greedy_groups_tree cat g Hg) | exact Hx | exact Hy].
Qed.

Lemma greedy_partition cat : partitions (regroup_greedy link far cat) cat.
Proof.
  apply relabel_partition; [apply greedy_groups_perm|].
  intros g Hg E. apply (tree_conn_nonempty _ (greedy_groups_tree cat g Hg)). rewrite E. reflexivity.
Qed.

Lemma greedy_connected cat g' : In g' (regroup_greedy link far cat) ->
  exists g, In g (greedy_groups link far cat) /\ ids g' = ids g /\ incl g cat /\
            forall x y, In x g -> In y g -> glinked link g x y.
Proof.
  unfold regroup_greedy. intros Hg. apply relabel_from_In in Hg as (g & i & Hg & -> & _).
  exists g. split; [exact Hg|split; [apply relabel_group_ids|split]].
  - intros z Hz. apply (Permutation_in _ (greedy_groups_perm cat)). apply in_concat. eauto.
  - apply (greedy_groups_connected cat g Hg).
Qed.

Lemma greedy_perm_invariant cat cat' : NoDup (map s_dec cat) -> Permutation cat cat' ->
  regroup_greedy link far cat' = regroup_greedy link far cat.
Proof.
  intros Hnd Hp. unfold regroup_greedy, greedy_groups, dec_order. rewrite (isort_perm_eq s_dec cat cat' Hp Hnd). reflexivity.
Qed.

Lemma greedy_numbering cat : NoDup (ids cat) -> numbered 0 0 (regroup_greedy link far cat).
Proof.
  intros Hnd. unfold regroup_greedy. rewrite greedy_first_island_spec, greedy_first_source_spec.
  apply (relabel_numbering _ _ 0 greedy_key_desc 0).
  intros g Hg. apply (NoDup_concat_each s_id (greedy_groups link far cat)); [|exact Hg].
  eapply Permutation_NoDup; [apply Permutation_map; symmetry; apply greedy_groups_perm | exact Hnd].
Qed.
End GreedyFacts.
