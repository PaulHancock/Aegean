(* C19 - real-valued part: resize with a ratio, the eps conversion, the unit-vector embedding.
   Uses the standard-library axioms of Reals only. *)
From Coq Require Import Reals Lra.
From Aegean Require Import Lib.RBase Lib.Sphere Gen.ClusterR.
Open Scope R_scope.

Definition resize_core (v p r : R) : R := sqrt (v ^ 2 + p ^ 2 * (1 - 1 / r ^ 2)).
Lemma resize_a_spec a p r : resize_a a p r = resize_core a p r.
Proof. reflexivity. Qed.
Lemma resize_b_spec b p r : resize_b b p r = resize_core b p r.
Proof. reflexivity. Qed.
Definition chord_of_arcmin (e : R) : R := 2 * sin (rad (e / 60) / 2).
Lemma eps_chord_aereg_spec e : eps_chord_aereg e = chord_of_arcmin e.
Proof. reflexivity. Qed.
Lemma eps_chord_finder_spec e : eps_chord_finder e = chord_of_arcmin e.
Proof. reflexivity. Qed.
Lemma emb_spec ra dec :
  emb ra dec = (cos (rad ra) * cos (rad dec), cos (rad dec) * sin (rad ra), sin (rad dec)).
Proof. reflexivity. Qed.
Local Opaque resize_a resize_b eps_chord_aereg eps_chord_finder emb.

Lemma resize_core_1 v p : resize_core v p 1 = Rabs v.
Proof.
  unfold resize_core. replace (v ^ 2 + p ^ 2 * (1 - 1 / 1 ^ 2)) with (Rsqr v) by (unfold Rsqr; field).
  apply sqrt_Rsqr_abs.
Qed.

Lemma resize_core_mono v p r1 r2 : 1 <= r1 -> r1 <= r2 -> resize_core v p r1 <= resize_core v p r2.
Proof.
  intros H1 H12. unfold resize_core. apply sqrt_le_1_alt.
  assert (Hinv : / r2 ^ 2 <= / r1 ^ 2) by (apply Rinv_le_contravar; nra).
  assert (0 <= p ^ 2) by (simpl; nra). unfold Rdiv. nra.
Qed.

Lemma resize_core_ge v p r : 1 <= r -> v <= resize_core v p r.
Proof.
  intros Hr. apply Rle_trans with (resize_core v p 1); [|apply resize_core_mono; lra].
  rewrite resize_core_1. apply Rle_abs.
Qed.

Lemma resize_id a b pa pb : 0 <= a -> 0 <= b -> resize_a a pa 1 = a /\ resize_b b pb 1 = b.
Proof.
  intros Ha Hb. rewrite (resize_a_spec a pa 1), (resize_b_spec b pb 1), !resize_core_1.
  split; apply Rabs_pos_eq; assumption.
Qed.

Lemma resize_mono a b pa pb r : 1 <= r ->
  a <= resize_a a pa r /\ b <= resize_b b pb r /\
  (forall r', r <= r' -> resize_a a pa r <= resize_a a pa r' /\ resize_b b pb r <= resize_b b pb r').
Proof.
  intros Hr. rewrite (resize_a_spec a pa r), (resize_b_spec b pb r). repeat split; try (apply resize_core_ge; auto).
  - rewrite (resize_a_spec a pa r'). apply resize_core_mono; auto.
  - rewrite (resize_b_spec b pb r'). apply resize_core_mono; auto.
Qed.

Lemma half_chord_mono g t : 0 <= g <= PI -> 0 <= t <= PI -> (2 * sin (g / 2) <= 2 * sin (t / 2) <-> g <= t).
Proof.
  intros Hg Ht. pose proof PI_RGT_0 as Hpi. split; intros H.
  - assert (g / 2 <= t / 2) by (apply sin_incr_0; lra). lra.
  - assert (sin (g / 2) <= sin (t / 2)) by (apply sin_incr_1; lra). lra.
Qed.

Definition dist3 (u v : R * R * R) : R :=
  let '(x, y, z) := u in let '(x', y', z') := v in sqrt ((x - x') ^ 2 + (y - y') ^ 2 + (z - z') ^ 2).

Lemma emb_uvec ra dec : emb ra dec = uvec ra dec.
Proof. rewrite emb_spec. unfold uvec. rewrite (Rmult_comm (cos (rad ra))). reflexivity. Qed.

Lemma emb_unit ra dec : let '(x, y, z) := emb ra dec in x * x + y * y + z * z = 1.
Proof. rewrite emb_uvec. exact (uvec_unit ra dec). Qed.

(* the Euclidean distance of the embedded positions is the chord 2 sin(gamma/2) of their angular
   separation gamma (spherical law of cosines) *)
Lemma emb_chord ra1 dec1 ra2 dec2 g : 0 <= g <= PI ->
  cos g = sin (rad dec1) * sin (rad dec2) + cos (rad dec1) * cos (rad dec2) * cos (rad ra1 - rad ra2) ->
  dist3 (emb ra1 dec1) (emb ra2 dec2) = 2 * sin (g / 2).
Proof.
  intros Hg Hc. rewrite !emb_uvec. unfold dist3, uvec.
  (* |u - v|^2 = 4 hav = 2 (1 - u.v) = 2 (1 - cos g) = (2 sin (g/2))^2 *)
  pose proof (hav_chord ra1 dec1 ra2 dec2) as Hh. cbv zeta in Hh. rewrite hav_dot, dot_uvec in Hh. unfold uvec, vsub, dot in Hh.
  replace (cos (rad (ra2 - ra1))) with (cos (rad ra1 - rad ra2)) in Hh by (rewrite rad_sub, <- cos_neg; f_equal; ring).
  pose proof (sin2_half g) as Hs. rewrite Hc in Hs.
  replace (_ + _ + _) with ((2 * sin (g / 2)) * (2 * sin (g / 2))) by lra.
  apply sqrt_square. pose proof PI_RGT_0. assert (0 <= sin (g / 2)) by (apply sin_ge_0; lra). lra.
Qed.

Lemma eps_chord ra1 dec1 ra2 dec2 gamma e : 0 <= gamma <= 180 -> 0 <= e <= 10800 ->
  cos (rad gamma) = sin (rad dec1) * sin (rad dec2) + cos (rad dec1) * cos (rad dec2) * cos (rad ra1 - rad ra2) ->
  (dist3 (emb ra1 dec1) (emb ra2 dec2) <= eps_chord_aereg e <-> gamma <= e / 60) /\
  (dist3 (emb ra1 dec1) (emb ra2 dec2) <= eps_chord_finder e <-> gamma <= e / 60).
Proof.
  intros Hg He Hc. pose proof PI_RGT_0 as Hpi.
  assert (Hrg : 0 <= rad gamma <= PI) by (unfold rad; split; nra).
  assert (Hre : 0 <= rad (e / 60) <= PI) by (unfold rad; split; nra).
  rewrite (emb_chord ra1 dec1 ra2 dec2 (rad gamma) Hrg Hc), (eps_chord_aereg_spec e), (eps_chord_finder_spec e).
  unfold chord_of_arcmin. rewrite (half_chord_mono _ _ Hrg Hre), rad_le_iff. split; reflexivity.
Qed.
