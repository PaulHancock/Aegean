(* C08 (extension) - proofs about Model/CombineModel.v: MIMAS.combine_regions and intersect_regions are the documented
   set expressions.  Built on the step and history theorems of Proofs/RegionProofs.v. *)
From Coq Require Import ZArith Bool List Lia.
From Aegean Require Import Gen.Regions Gen.Combine Model.RegionModel Model.RegionSpec Model.CombineModel
  Proofs.RegionProofs.
Import ListNotations.
Open Scope Z_scope.

(* The leaves of Gen/Combine.v whose value the proofs need, each with its equation; nothing below
   unfolds them.  The four galactic_* flags have none and stay symbolic: combine_spec
   (Model/CombineModel.v) mentions the same flags, so the theorems hold for either value, and
   Props/C08x.v states the present ones. *)
Lemma combine_stages_eq : combine_stages = [1; 2; 3; 4; 5; 6].
Proof. reflexivity. Qed.
Lemma combine_result_depth_eq D : combine_result_depth D = D.
Proof. reflexivity. Qed.
Lemma excl_circle_depth_eq D : excl_circle_depth D = D.
Proof. reflexivity. Qed.
Lemma excl_poly_depth_eq D : excl_poly_depth D = D.
Proof. reflexivity. Qed.
Lemma circle_insert_depth_eq D : circle_insert_depth D = D.
Proof. reflexivity. Qed.
Lemma poly_insert_depth_eq D : poly_insert_depth D = D.
Proof. reflexivity. Qed.
Lemma combine_union_renorm_eq : combine_union_renorm = true.
Proof. reflexivity. Qed.
Lemma intersect_min_files_eq : intersect_min_files = 2.
Proof. reflexivity. Qed.
Lemma intersect_base_index_eq : intersect_base_index = 0.
Proof. reflexivity. Qed.
Lemma intersect_rest_from_eq : intersect_rest_from = 1.
Proof. reflexivity. Qed.
(* the healpy queries are made in the NESTED scheme (the whole region model is about nested pixel numbers) at nside 2^depth *)
Lemma shape_queries : circle_query_nest = true /\ poly_query_nest = true /\
  (forall d, circle_nside d = 2 ^ d) /\ (forall d, poly_nside d = 2 ^ d).
Proof. repeat split. Qed.
Local Opaque combine_stages combine_result_depth excl_circle_depth excl_poly_depth circle_insert_depth poly_insert_depth
  combine_union_renorm intersect_min_files intersect_base_index intersect_rest_from
  galactic_incl_circles galactic_excl_circles galactic_incl_polygons galactic_excl_polygons.

Definition pix_ok (D : Z) (ps : list Z) : Prop := Forall (fun p => 0 <= p < 12 * 4 ^ D) ps.
Definition shape_ok (D : Z) (sh : shape) : Prop := pix_ok D (plain sh) /\ pix_ok D (conv sh).
Definition wf (c : container) : Prop :=
  1 <= maxdepth c /\
  Forall valid (add_region c) /\ Forall Inv (rem_region c) /\
  Forall (shape_ok (maxdepth c)) (include_circles c) /\ Forall (shape_ok (maxdepth c)) (exclude_circles c) /\
  Forall (shape_ok (maxdepth c)) (include_polygons c) /\ Forall (shape_ok (maxdepth c)) (exclude_polygons c).

Lemma pick_ok D g b sh : shape_ok D sh -> pix_ok D (pick g b sh).
Proof. intros [H1 H2]. unfold pick. destruct (g && b); assumption. Qed.

(* the operations that raise: a set operation on an operand of another depth *)
Definition err_op (D : Z) (o : op) : bool :=
  match o with
  | Without r | Intersect r | SymDiff r => negb (depth r =? D)
  | _ => false
  end.

Lemma setop_is_err f s r :
  is_err (snd (match setop f s r with Some s' => (s', OUnit) | None => (s, OErr) end)) = negb (depth r =? depth s).
Proof.
  destruct (Z.eq_dec (depth r) (depth s)) as [E|E].
  - rewrite (setop_some f s r E). apply Z.eqb_eq in E. rewrite E. reflexivity.
  - rewrite (setop_none f s r E). apply Z.eqb_neq in E. rewrite E. reflexivity.
Qed.

Lemma step_is_err s o : is_err (snd (step s o)) = err_op (depth s) o.
Proof.
  destruct o as [d ps|d ps|r b|r|r|r|qs| | | | | ]; cbn [step err_op]; try reflexivity.
  - apply (setop_is_err f_without).
  - apply (setop_is_err f_intersect).
  - apply (setop_is_err f_symdiff).
Qed.

Lemma run_strict_spec D ops : forall s, Inv s -> depth s = D -> Forall (op_ok D) ops ->
  run_strict s ops = if existsb (err_op D) ops then None else Some (run s ops).
Proof.
  induction ops as [|o ops IH]; intros s HI HD Hops; [reflexivity|]. subst D.
  apply Forall_cons_iff in Hops. destruct Hops as [Ho Hops].
  destruct (step_inv s o HI Ho) as [HI' HD'].
  cbn [run_strict existsb]. rewrite run_cons, <- step_is_err.
  destruct (step s o) as [s' r]. cbn [fst snd] in *.
  destruct (is_err r); [reflexivity | exact (IH s' HI' HD' Hops)].
Qed.

Lemma fresh_depth d ins ps : depth (fresh d ins ps) = d.
Proof. unfold fresh. cbn [step fst]. rewrite renorm_depth. reflexivity. Qed.

Lemma fresh_ok D ps : 1 <= D -> pix_ok D ps ->
  Inv (fresh D D ps) /\ forall q, absP (fresh D D ps) q <-> In q ps.
Proof.
  intros HD Hps.
  assert (Hok : op_ok (depth (init D)) (AddShape D ps)) by (split; [cbn [init depth]; lia | exact Hps]).
  destruct (step_sound (init D) _ (init_Inv D HD) Hok) as [[HI _] [[Habs _] _]].
  split; [exact HI|]. intros q. unfold fresh. rewrite Habs. cbn [spec_step init depth].
  rewrite absP_init, cover_set_at_top. tauto.
Qed.

Definition foldS (D : Z) (ops : list op) (A : Z -> Prop) : Z -> Prop := fold_left (spec_step D) ops A.

Lemma foldS_ext D ops : forall A A', (forall q, A q <-> A' q) -> forall q, foldS D ops A q <-> foldS D ops A' q.
Proof.
  induction ops as [|o ops IH]; intros A A' H q; [apply H|].
  unfold foldS. cbn [fold_left]. apply IH. intros q'. apply spec_step_ext. exact H.
Qed.

Lemma foldS_app D a b A : foldS D (a ++ b) A = foldS D b (foldS D a A).
Proof. unfold foldS. apply fold_left_app. Qed.

Lemma foldS_nil D A : foldS D [] A = A.
Proof. reflexivity. Qed.

Lemma foldS_cons D o ops A : foldS D (o :: ops) A = foldS D ops (spec_step D A o).
Proof. reflexivity. Qed.

Lemma foldS_or {X} D (f : X -> op) (P : X -> Z -> Prop) l :
  (forall x A q, spec_step D A (f x) q <-> A q \/ P x q) ->
  forall A q, foldS D (map f l) A q <-> A q \/ exists x, In x l /\ P x q.
Proof.
  intros Hf. induction l as [|x l IH]; intros A q; cbn [map].
  - rewrite foldS_nil. split; [tauto | intros [H|[x [[] _]]]; exact H].
  - rewrite foldS_cons, IH, Hf. split.
    + intros [[H|H]|[x' [Hx Hq]]]; [tauto | right; exists x | right; exists x']; cbn [In]; tauto.
    + intros [H|[x' [[<-|Hx] Hq]]]; [tauto | tauto | right; exists x'; tauto].
Qed.

Lemma foldS_and {X} D (f : X -> op) (P : X -> Z -> Prop) l :
  (forall x, In x l -> forall A q, spec_step D A (f x) q <-> A q /\ P x q) ->
  forall A q, foldS D (map f l) A q <-> A q /\ forall x, In x l -> P x q.
Proof.
  induction l as [|x l IH]; intros Hf A q; cbn [map].
  - rewrite foldS_nil. split; [|tauto]. intros H. split; [exact H | intros x []].
  - rewrite foldS_cons, IH by (intros x' Hx'; apply Hf; right; exact Hx').
    rewrite (Hf x (or_introl eq_refl)). split.
    + intros [[HA Hx] Hall]. split; [exact HA|]. intros x' [<-|Hx']; [exact Hx | apply Hall; exact Hx'].
    + intros [HA Hall]. split; [split; [exact HA | apply Hall; left; reflexivity]|].
      intros x' Hx'. apply Hall. right. exact Hx'.
Qed.

Lemma in_none {X} (Q : X -> Prop) l : (forall x, In x l -> ~ Q x) <-> ~ exists x, In x l /\ Q x.
Proof. split; [intros H [x [Hx Hq]]; exact (H x Hx Hq) | intros H x Hx Hq; apply H; exists x; tauto]. Qed.

Lemma foldS_union D b rs A q : foldS D (map (fun r => Union r b) rs) A q <-> A q \/ sky_of D rs q.
Proof. apply (foldS_or D (fun r => Union r b) (fun r => cover_set D (cells r))). reflexivity. Qed.

Lemma foldS_shapes D pss A q : foldS D (map (AddShape D) pss) A q <-> A q \/ pixels_of pss q.
Proof.
  apply (foldS_or D (AddShape D) (fun ps q => In q ps)).
  intros ps A' q'. cbn [spec_step]. rewrite cover_set_at_top. tauto.
Qed.

Lemma foldS_without D rs A q : (forall r, In r rs -> depth r = D) ->
  (foldS D (map Without rs) A q <-> A q /\ ~ sky_of D rs q).
Proof.
  intros Hd. unfold sky_of. rewrite <- in_none.
  apply (foldS_and D Without (fun r q => ~ cover_set D (cells r) q)).
  intros r Hr A' q'. cbn [spec_step]. unfold absP. rewrite (Hd r Hr), Z.eqb_refl. tauto.
Qed.

Lemma foldS_fresh D pss A q : 1 <= D -> Forall (pix_ok D) pss ->
  (foldS D (map (fun ps => Without (fresh D D ps)) pss) A q <-> A q /\ ~ pixels_of pss q).
Proof.
  intros HD Hok. unfold pixels_of. rewrite <- in_none.
  apply (foldS_and D (fun ps => Without (fresh D D ps)) (fun ps q => ~ In q ps)).
  intros ps Hps A' q'. cbn [spec_step]. rewrite fresh_depth, Z.eqb_refl.
  destruct (fresh_ok D ps HD (proj1 (Forall_forall _ _) Hok ps Hps)) as [_ Habs]. rewrite Habs. tauto.
Qed.

Lemma foldS_intersect D rs A q : (forall r, In r rs -> depth r = D) ->
  (foldS D (map Intersect rs) A q <-> A q /\ forall r, In r rs -> absP r q).
Proof.
  intros Hd. apply (foldS_and D Intersect (fun r q => absP r q)).
  intros r Hr A' q'. cbn [spec_step]. rewrite (Hd r Hr), Z.eqb_refl. tauto.
Qed.

(* the six stages in the generated order, with the generated depths and flags put in *)
Lemma combine_ops_eq c : combine_ops c =
  map (fun r => Union r true) (add_region c) ++ map Without (rem_region c) ++
  map (AddShape (maxdepth c)) (circles_in c) ++
  map (fun ps => Without (fresh (maxdepth c) (maxdepth c) ps)) (circles_out c) ++
  map (AddShape (maxdepth c)) (polygons_in c) ++
  map (fun ps => Without (fresh (maxdepth c) (maxdepth c) ps)) (polygons_out c).
Proof.
  unfold combine_ops, combine_ops_order, circles_in, circles_out, polygons_in, polygons_out.
  rewrite combine_stages_eq. cbn [flat_map stage_ops].
  rewrite combine_union_renorm_eq, combine_result_depth_eq, excl_circle_depth_eq, excl_poly_depth_eq,
    circle_insert_depth_eq, poly_insert_depth_eq, !map_map, app_nil_r.
  reflexivity.
Qed.

Lemma picked_ok D g b shs : Forall (shape_ok D) shs -> Forall (pix_ok D) (map (pick g b) shs).
Proof. intros H. apply Forall_map. revert H. apply Forall_impl. intros sh. apply pick_ok. Qed.

Lemma combine_ops_ok c : wf c -> Forall (op_ok (maxdepth c)) (combine_ops c).
Proof.
  intros (HD & Hadd & Hrem & Hci & Hco & Hpi & Hpo). rewrite combine_ops_eq.
  assert (Hsh : forall pss, Forall (pix_ok (maxdepth c)) pss ->
            Forall (op_ok (maxdepth c)) (map (AddShape (maxdepth c)) pss)).
  { intros pss. rewrite Forall_map. apply Forall_impl. intros ps Hps. split; [lia | exact Hps]. }
  assert (Hfr : forall pss, Forall (pix_ok (maxdepth c)) pss ->
            Forall (op_ok (maxdepth c)) (map (fun ps => Without (fresh (maxdepth c) (maxdepth c) ps)) pss)).
  { intros pss. rewrite Forall_map. apply Forall_impl. intros ps Hps. apply fresh_ok; assumption. }
  repeat (apply Forall_app; split); [| | apply Hsh | apply Hfr | apply Hsh | apply Hfr]; try (apply picked_ok; assumption).
  - rewrite Forall_map. exact Hadd.
  - rewrite Forall_map. exact Hrem.
Qed.

Lemma existsb_map_false {A} (f : A -> op) D l : (forall x, err_op D (f x) = false) ->
  existsb (err_op D) (map f l) = false.
Proof. intros H. induction l as [|x l IH]; cbn [map existsb]; [reflexivity | rewrite H, IH; reflexivity]. Qed.

Definition bad_depth (D : Z) (r : region) : bool := negb (depth r =? D).

Lemma existsb_err_setop D (f : region -> op) rs : (forall r, err_op D (f r) = bad_depth D r) ->
  existsb (err_op D) (map f rs) = existsb (bad_depth D) rs.
Proof. intros H. induction rs as [|r rs IH]; cbn [map existsb]; [reflexivity | rewrite H, IH; reflexivity]. Qed.

Lemma combine_ops_err c : existsb (err_op (maxdepth c)) (combine_ops c) = existsb (bad_depth (maxdepth c)) (rem_region c).
Proof.
  assert (Hfr : forall ps, err_op (maxdepth c) (Without (fresh (maxdepth c) (maxdepth c) ps)) = false)
    by (intros ps; cbn [err_op]; rewrite fresh_depth, Z.eqb_refl; reflexivity).
  rewrite combine_ops_eq, !existsb_app, (existsb_err_setop _ Without) by reflexivity.
  rewrite !existsb_map_false by (exact Hfr || reflexivity).
  cbn [orb]. apply orb_false_r.
Qed.

Lemma combine_eq c : wf c ->
  combine c = if existsb (bad_depth (maxdepth c)) (rem_region c) then None
              else Some (run (init (maxdepth c)) (combine_ops c)).
Proof.
  intros Hwf. unfold combine, combine_order. fold (combine_ops c). rewrite combine_result_depth_eq.
  rewrite (run_strict_spec (maxdepth c) (combine_ops c) (init (maxdepth c)) (init_Inv _ (proj1 Hwf)) eq_refl
             (combine_ops_ok c Hwf)).
  rewrite combine_ops_err. reflexivity.
Qed.

Lemma existsb_bad_depth D rs : existsb (bad_depth D) rs = true <-> exists r, In r rs /\ depth r <> D.
Proof.
  rewrite existsb_exists. unfold bad_depth.
  setoid_rewrite negb_true_iff. setoid_rewrite Z.eqb_neq. reflexivity.
Qed.

Lemma no_bad_depth D rs : existsb (bad_depth D) rs = false <-> forall r, In r rs -> depth r = D.
Proof.
  rewrite <- not_true_iff_false, existsb_bad_depth. split.
  - intros H r Hr. destruct (Z.eq_dec (depth r) D) as [E|E]; [exact E | elim H; exists r; tauto].
  - intros H [r [Hr Hd]]. exact (Hd (H r Hr)).
Qed.

(* when does combine_regions raise: exactly when a -r file has another depth than the container *)
Theorem combine_raises : forall c, wf c ->
  (combine c = None <-> exists r, In r (rem_region c) /\ depth r <> maxdepth c).
Proof.
  intros c Hwf. rewrite (combine_eq c Hwf), <- existsb_bad_depth.
  destruct (existsb (bad_depth (maxdepth c)) (rem_region c)); split; intros H; congruence.
Qed.

Lemma combine_some c s : wf c -> combine c = Some s ->
  s = run (init (maxdepth c)) (combine_ops c) /\ forall r, In r (rem_region c) -> depth r = maxdepth c.
Proof.
  intros Hwf H. rewrite (combine_eq c Hwf) in H.
  destruct (existsb (bad_depth (maxdepth c)) (rem_region c)) eqn:E; [discriminate H|].
  split; [congruence | apply no_bad_depth; exact E].
Qed.

(* the pixel set of the result is the documented left-to-right set expression *)
Theorem combine_refines : forall c s, wf c -> combine c = Some s ->
  forall q, absP s q <-> combine_spec c q.
Proof.
  intros c s Hwf Hs q. destruct (combine_some c s Hwf Hs) as [-> Hdep].
  pose proof Hwf as (HD & Hadd & Hrem & Hci & Hco & Hpi & Hpo).
  rewrite (history_refines (maxdepth c) (combine_ops c) HD (combine_ops_ok c Hwf)).
  fold (foldS (maxdepth c) (combine_ops c) (fun _ => False)).
  rewrite combine_ops_eq, !foldS_app.
  rewrite (foldS_fresh _ (polygons_out c) _ _ HD (picked_ok _ _ _ _ Hpo)).
  rewrite foldS_shapes.
  rewrite (foldS_fresh _ (circles_out c) _ _ HD (picked_ok _ _ _ _ Hco)).
  rewrite foldS_shapes.
  rewrite (foldS_without _ _ _ _ Hdep).
  rewrite foldS_union.
  unfold combine_spec. cbv zeta. tauto.
Qed.

Lemma combine_ops_renormalise c : (forall r, In r (rem_region c) -> depth r = maxdepth c) ->
  Forall (fun o => renormalises (maxdepth c) o = true) (combine_ops c).
Proof.
  intros Hdep. rewrite combine_ops_eq.
  repeat (apply Forall_app; split); apply Forall_map, Forall_forall; intros x Hx; cbn [renormalises]; try reflexivity.
  - apply Z.eqb_eq. apply Hdep. exact Hx.
  - rewrite fresh_depth. apply Z.eqb_refl.
  - rewrite fresh_depth. apply Z.eqb_refl.
Qed.

Lemma run_snoc s ops o : run s (ops ++ [o]) = fst (step (run s ops) o).
Proof. unfold run. rewrite fold_left_app. reflexivity. Qed.

(* the last operation decides: if it renormalises, the state is in normal form *)
Lemma run_normal D ops s : Inv s -> depth s = D -> Forall (op_ok D) ops ->
  Forall (fun o => renormalises D o = true) ops -> (ops = [] -> no_overlap s /\ no_mergeable s) ->
  no_overlap (run s ops) /\ no_mergeable (run s ops).
Proof.
  intros HI HD Hok Hren Hnil. destruct ops as [|o ops _] using rev_ind; [apply Hnil; reflexivity|].
  rewrite run_snoc. apply Forall_app in Hok. destruct Hok as [Hok Ho]. apply Forall_app in Hren.
  destruct (run_Inv D ops s HI HD Hok) as [HI' HD'].
  apply normal_form; rewrite ?HD'; [exact HI' | exact (Forall_inv Ho) | exact (Forall_inv (proj2 Hren))].
Qed.

Lemma init_normal D : no_overlap (init D) /\ no_mergeable (init D).
Proof. split; [intros c1 c2 q []|intros d p _ _ []]. Qed.

Lemma intersect_regions_cons a rest : rest <> [] ->
  intersect_regions (a :: rest) = match run_strict a (map Intersect rest) with Some s => IOk s | None => IDepth end.
Proof.
  intros Hne. unfold intersect_regions.
  rewrite intersect_min_files_eq, intersect_base_index_eq, intersect_rest_from_eq.
  destruct rest as [|b rest]; [congruence|]. cbn [length].
  replace (Z.of_nat (S (S (length rest))) <? 2) with false by (symmetry; apply Z.ltb_ge; lia).
  reflexivity.
Qed.

Theorem intersect_too_few : forall fl, (length fl < 2)%nat -> intersect_regions fl = ITooFew.
Proof.
  intros fl H. unfold intersect_regions. rewrite intersect_min_files_eq.
  replace (Z.of_nat (length fl) <? 2) with true by (symmetry; apply Z.ltb_lt; lia). reflexivity.
Qed.

(* unequal depths: AssertionError, exactly when some later file has another depth than the first *)
Theorem intersect_raises : forall a rest, rest <> [] -> Inv a -> Forall Inv rest ->
  (intersect_regions (a :: rest) = IDepth <-> exists r, In r rest /\ depth r <> depth a).
Proof.
  intros a rest Hne Ha Hrest. rewrite (intersect_regions_cons a rest Hne).
  assert (Hok : Forall (op_ok (depth a)) (map Intersect rest)) by (rewrite Forall_map; exact Hrest).
  rewrite (run_strict_spec (depth a) _ a Ha eq_refl Hok), existsb_err_setop, <- existsb_bad_depth by reflexivity.
  destruct (existsb (bad_depth (depth a)) rest); split; intros H; congruence.
Qed.

Theorem intersect_refines : forall a rest D, rest <> [] -> Inv a -> Forall Inv rest ->
  depth a = D -> (forall r, In r rest -> depth r = D) ->
  exists s, intersect_regions (a :: rest) = IOk s /\
    (forall q, absP s q <-> forall r, In r (a :: rest) -> absP r q) /\
    Inv s /\ depth s = D /\ no_overlap s /\ no_mergeable s.
Proof.
  intros a rest D Hne Ha Hrest HDa Hdep. rewrite (intersect_regions_cons a rest Hne).
  assert (Hok : Forall (op_ok D) (map Intersect rest)) by (rewrite Forall_map; exact Hrest).
  rewrite (run_strict_spec D _ a Ha HDa Hok), existsb_err_setop by reflexivity.
  rewrite (proj2 (no_bad_depth D rest) Hdep). eexists. split; [reflexivity|].
  destruct (run_refines D (map Intersect rest) a (absP a) Ha HDa Hok (fun q => iff_refl _)) as [[HI HDs] Habs].
  split; [|split; [exact HI|split; [exact HDs|]]].
  - intros q. rewrite Habs. fold (foldS D (map Intersect rest) (absP a)). rewrite (foldS_intersect D rest _ _ Hdep). split.
    + intros [Hq Hall] r [<-|Hr]; [exact Hq | apply Hall; exact Hr].
    + intros Hall. split; [apply Hall; left; reflexivity|]. intros r Hr. apply Hall. right. exact Hr.
  - apply (run_normal D); [exact Ha | exact HDa | exact Hok | | intros E; apply map_eq_nil in E; contradiction].
    apply Forall_map, Forall_forall. intros r Hr. cbn [renormalises]. apply Z.eqb_eq, Hdep, Hr.
Qed.
