(* C09 (extension) - lemmas about Model/Ds9.v.  The generated leaves of Gen/Ds9.v enter through one equation per model
   function, proved by computation with the leaf values written out: a changed leaf breaks the equation of its function. *)
From Coq Require Import Reals ZArith Bool List Lia Lra.
From Aegean Require Import Lib.RBase Gen.SkyCoords Gen.Regions Gen.Ds9 Model.RegionModel Model.RegionSpec Model.SkyCoords
  Model.SkyCoordsSpec Model.Ds9 Proofs.RegionProofs Proofs.SkyCoordsProofs.
Import ListNotations.
Open Scope Z_scope.

Definition ds9_delims : list Z := [9; 10; 11; 12; 13; 32; 40; 41; 44].   (* white space ( ) , *)
Lemma reg_dispatch_eq : reg_dispatch =
  [([98; 111; 120], 1); ([99; 105; 114; 99; 108; 101], 2); ([112; 111; 108; 121; 103; 111; 110], 3)].
Proof. reflexivity. Qed.

Definition clean (d : list Z) (w : str) : Prop := forall c, In c w -> is_in c d = false.
Definition delim (d : list Z) (c : Z) : Prop := is_in c d = true.

Lemma is_in_spec c l : is_in c l = true <-> In c l.
Proof. exact (memZ_spec c l). Qed.

Lemma ws_delim c : is_in c ws_chars = true -> is_in c ds9_delims = true.
Proof.
  intros H. change ds9_delims with (ws_chars ++ [40; 41; 44]). unfold is_in in *. rewrite existsb_app, H. reflexivity.
Qed.

Lemma split_clean d w : clean d w -> split d w = [w].
Proof.
  induction w as [|c w IH]; intros H; cbn [split]; [reflexivity|].
  rewrite (H c (or_introl eq_refl)). rewrite IH; [reflexivity|]. intros x Hx. apply H. right. exact Hx.
Qed.

Lemma split_app d w c t : clean d w -> delim d c -> split d (w ++ c :: t) = w :: split d t.
Proof.
  intros Hw Hc. induction w as [|a w IH]; cbn [app split].
  - unfold delim in Hc. rewrite Hc. reflexivity.
  - rewrite (Hw a (or_introl eq_refl)). rewrite IH; [reflexivity|]. intros x Hx. apply Hw. right. exact Hx.
Qed.

(* a line  head d1 w1 d2 w2 ... dn wn d tail : the head, then the words, then whatever the tail splits into *)
Fixpoint join (dws : list (Z * str)) : str :=
  match dws with [] => [] | (d, w) :: t => d :: w ++ join t end.

Lemma split_join d dws c tail : Forall (fun dw => delim d (fst dw) /\ clean d (snd dw)) dws -> delim d c ->
  forall head, clean d head ->
  split d (head ++ join dws ++ c :: tail) = head :: map snd dws ++ split d tail.
Proof.
  intros H Hc. induction H as [|[d0 w0] dws [Hd0 Hw0] _ IH]; intros head Hh; cbn [join map app].
  - apply split_app; assumption.
  - cbn [fst snd] in *. rewrite split_app, <- app_assoc, IH by assumption. reflexivity.
Qed.

Lemma cut_last_1 r q : cut_last 1 (r ++ [q]) = r.
Proof.
  unfold cut_last. rewrite app_length. cbn [length]. replace (length r + 1 - Z.to_nat 1)%nat with (length r) by lia.
  rewrite firstn_app, Nat.sub_diag, firstn_all. cbn [firstn]. apply app_nil_r.
Qed.

(* words 1, 2 and 3 of the line: ra (hours when it contains ':'), dec, and the radius, which loses its last character and is read
   as arc seconds *)
Lemma circle_sym_split line head a b r rest : split ds9_delims line = head :: a :: b :: r :: rest ->
  circle_sym line = Some ((if has_colon a then 1 else 0, a), (0, b), (3, cut_last 1 r)).
Proof. intros E. unfold circle_sym. change circle_delims with ds9_delims. rewrite E. reflexivity. Qed.

Lemma circle_sym_words head a b r rest : split ds9_delims head = head :: a :: b :: r :: rest ->
  circle_sym head = Some ((if has_colon a then 1 else 0, a), (0, b), (3, cut_last 1 r)).
Proof. apply circle_sym_split. Qed.

Lemma circle2circle_split A line head a b r rest : split ds9_delims line = head :: a :: b :: r :: rest ->
  circle2circle A line = Some (angle_str A (if has_colon a then 1 else 0) a, angle_str A 0 b, angle_str A 3 (cut_last 1 r)).
Proof. intros E. unfold circle2circle. rewrite (circle_sym_split _ _ _ _ _ _ E). reflexivity. Qed.

Lemma box_sym_eq line : box_sym line =
  let ws := split ds9_delims line in
  match word 1 ws, word 2 ws, word 3 ws, word 4 ws with
  | Some ra, Some dec, Some w, Some h =>
      Some ((if has_colon ra then 1 else 0, ra), (0, dec), cut_last 1 w, cut_last 1 h)
  | _, _, _, _ => None
  end.
Proof. reflexivity. Qed.

Lemma box_sym_words line head a b w h rest : split ds9_delims line = head :: a :: b :: w :: h :: rest ->
  box_sym line = Some ((if has_colon a then 1 else 0, a), (0, b), cut_last 1 w, cut_last 1 h).
Proof. intros E. rewrite box_sym_eq. cbv zeta. rewrite E. reflexivity. Qed.

Lemma word_firstn n ws1 ws2 i : firstn n ws1 = firstn n ws2 -> 0 <= i < Z.of_nat n -> word i ws1 = word i ws2.
Proof.
  intros E Hi. unfold word. destruct (Z.ltb_spec i 0); [lia|].
  assert (Hk : (Z.to_nat i < n)%nat) by lia. revert Hk. generalize (Z.to_nat i). clear Hi H.
  revert ws1 ws2 E. induction n as [|n IH]; intros ws1 ws2 E k Hk; [lia|].
  destruct ws1 as [|a1 ws1], ws2 as [|a2 ws2]; try discriminate E; [reflexivity|].
  cbn [firstn] in E. injection E as <- E. destruct k as [|k]; [reflexivity|]. apply (IH _ _ E). lia.
Qed.

Theorem box_angle_ignored : forall A l1 l2, firstn 5 (split ds9_delims l1) = firstn 5 (split ds9_delims l2) ->
  box2poly A l1 = box2poly A l2.
Proof.
  intros A l1 l2 E. unfold box2poly. rewrite !box_sym_eq. cbv zeta.
  rewrite (word_firstn 5 _ _ 1 E), (word_firstn 5 _ _ 2 E), (word_firstn 5 _ _ 3 E), (word_firstn 5 _ _ 4 E) by lia.
  reflexivity.
Qed.

Theorem box_symmetric : forall ra dec w h p1 p2 p3 p4, box_corners ra dec w h = [p1; p2; p3; p4] ->
  (fst p1 + fst p3 = 2 * ra /\ snd p1 + snd p3 = 2 * dec /\ fst p2 + fst p4 = 2 * ra /\ snd p2 + snd p4 = 2 * dec /\
   snd p1 = snd p2 /\ fst p2 = fst p3 /\ snd p3 = snd p4 /\ fst p4 = fst p1)%R.
Proof.
  intros ra dec w h p1 p2 p3 p4 E. unfold box_corners in E. injection E as <- <- <- <-. cbn [fst snd].
  repeat split; lra.
Qed.

Section Astropy.
  Variable A : astro.
  (* the words the hypotheses speak about: decimal numbers, and numbers or sexagesimal triples *)
  Variable numeric : str -> Prop.
  Variable coordinate : str -> Prop.
  (* astropy, validated against the library on every run: Angle(s, arcsec).degree = float(s) / 3600 for decimal s;
     Angle(s, hour).degree = 15 Angle(s, deg).degree; Angle(x, arcsec).degree = x / 3600 for a number x *)
  Hypothesis A_arcsec_str : forall s, numeric s -> angle_str A 3 s = (pyfloat A s / 3600)%R.
  Hypothesis A_hour : forall s, coordinate s -> angle_str A 1 s = (15 * angle_str A 0 s)%R.
  Hypothesis A_arcsec_num : forall x, angle_num A 3 x = (x / 3600)%R.

  (* for `circle(a,b,r'')` the centre is (a [x 15 when written h:m:s], b) degrees and the radius r / 3600
     degrees.  The character after r is NOT looked at: r' and r'' and rd give the same radius, and a radius without a unit
     suffix loses its last digit (recorded finding) *)
  Theorem circle_units : forall head d1 a d2 b d3 r q d4 tail,
    clean ds9_delims head -> clean ds9_delims a -> clean ds9_delims b -> clean ds9_delims (r ++ [q]) ->
    delim ds9_delims d1 -> delim ds9_delims d2 -> delim ds9_delims d3 -> delim ds9_delims d4 ->
    coordinate a -> numeric r ->
    circle2circle A (head ++ d1 :: a ++ d2 :: b ++ d3 :: (r ++ [q]) ++ d4 :: tail) =
    Some ((if has_colon a then 15 * angle_str A 0 a else angle_str A 0 a)%R, angle_str A 0 b, (pyfloat A r / 3600)%R).
  Proof.
    intros. rewrite (circle2circle_split A _ head a b (r ++ [q]) (split ds9_delims tail))
      by (rewrite !split_app by assumption; reflexivity).
    rewrite cut_last_1, A_arcsec_str by assumption.
    destruct (has_colon a); [rewrite A_hour by assumption|]; reflexivity.
  Qed.

  (* the polygon of a box whose first five words are box a b w'' h'': with (cra, cdec) the centre as SkyCoord reports it and
     hw = w / 7200, hh = h / 7200 degrees, the corners are (cra +- hw, cdec +- hh) IN COORDINATES (no 1 / cos dec on the RA side,
     recorded finding), in the order ++ -+ -- +-; whatever follows the fifth word (the rotation angle) is not read *)
  Theorem box_corners_thm : forall line head a b w qw h qh rest,
    split ds9_delims line = head :: a :: b :: (w ++ [qw]) :: (h ++ [qh]) :: rest ->
    let c := skycoord A (angle_str A (if has_colon a then 1 else 0) a) (angle_str A 0 b) in
    let hw := (pyfloat A w / 7200)%R in let hh := (pyfloat A h / 7200)%R in
    box2poly A line = Some [(fst c + hw, snd c + hh); (fst c - hw, snd c + hh); (fst c - hw, snd c - hh); (fst c + hw, snd c - hh)]%R.
  Proof.
    intros line head a b w qw h qh rest E c hw hh. unfold box2poly. rewrite (box_sym_words _ _ _ _ _ _ _ E).
    cbn [option_map]. rewrite !cut_last_1.
    unfold box_values, box_corners, box_half_width, box_half_height, aval. cbn [fst snd]. fold c.
    rewrite !A_arcsec_num.
    replace (pyfloat A w / 2 / 3600)%R with hw by (unfold hw; field).
    replace (pyfloat A h / 2 / 3600)%R with hh by (unfold hh; field). reflexivity.
  Qed.
End Astropy.

Fixpoint every_other (l : list str) : list str :=
  match l with a :: t => a :: match t with _ :: t' => every_other t' | [] => [] end | [] => [] end.

Lemma every_other_cons a t : every_other (a :: t) = a :: every_other (tl t).
Proof. destruct t; reflexivity. Qed.

Lemma stride2 fuel : forall l, (length l <= fuel)%nat -> stride_aux fuel 2 l = every_other l.
Proof.
  induction fuel as [|f IH]; intros l Hl.
  - destruct l; [reflexivity | cbn in Hl; lia].
  - destruct l as [|a [|b t]]; cbn [stride_aux pred skipn]; [reflexivity | destruct f; reflexivity |].
    rewrite IH by (cbn [length] in Hl; lia). reflexivity.
Qed.

(* l[k::2] *)
Lemma py_slice_2 k l : py_slice k 2 l = every_other (skipn (Z.to_nat k) l).
Proof. unfold py_slice. apply stride2. rewrite skipn_length. lia. Qed.

Definition keep (p : str * str) : bool := negb (blank (fst p) || blank (snd p)).
Definition zipped (ws : list str) : list (str * str) := filter keep (combine (every_other ws) (every_other (tl ws))).

(* words[1::2] against words[2::2] *)
Lemma poly_pairs_eq w0 ws : poly_pairs (w0 :: ws) = zipped ws.
Proof.
  change (poly_pairs (w0 :: ws)) with (filter keep (combine (py_slice 1 2 (w0 :: ws)) (py_slice 2 2 (w0 :: ws)))).
  rewrite !py_slice_2. reflexivity.
Qed.

Lemma zipped_cons2 a b t : zipped (a :: b :: t) = (if keep (a, b) then [(a, b)] else []) ++ zipped t.
Proof.
  unfold zipped. cbn [tl]. rewrite !every_other_cons. cbn [tl combine filter]. destruct (keep (a, b)); reflexivity.
Qed.

(* blank words give no pair, and neither does a word followed by blank ones only: a last word without partner is paired with a
   blank one and dropped without a message *)
Lemma zipped_blank rest : Forall (fun w => blank w = true) rest -> zipped rest = [] /\ forall x, zipped (x :: rest) = [].
Proof.
  induction 1 as [|e rest He _ [IH0 IH1]]; [split; reflexivity|]. split; [apply IH1|].
  intros x. rewrite zipped_cons2. unfold keep. cbn [fst snd]. rewrite He, orb_true_r. exact IH0.
Qed.

Fixpoint flatten (vs : list (str * str)) : list str := match vs with [] => [] | (a, b) :: t => a :: b :: flatten t end.

Lemma zipped_flatten vs rest : Forall (fun v => blank (fst v) = false /\ blank (snd v) = false) vs ->
  zipped (flatten vs ++ rest) = vs ++ zipped rest.
Proof.
  intros Hv. induction Hv as [|[a b] vs [Ha Hb] _ IH]; cbn [flatten app]; [reflexivity|].
  rewrite zipped_cons2. unfold keep. cbn [fst snd] in *. rewrite Ha, Hb, IH. reflexivity.
Qed.

Definition units_of (v : str * str) : aword * aword := ((if has_colon (fst v) then 1 else 0, fst v), (0, snd v)).
Lemma poly_units_eq v : poly_units v = units_of v.
Proof. unfold poly_units, units_of. destruct (has_colon (fst v)); reflexivity. Qed.

Lemma split_blank_tail tail : Forall (fun c => is_in c ws_chars = true) tail ->
  Forall (fun w => blank w = true) (split ds9_delims tail).
Proof.
  induction 1 as [|c t Hc _ IH]; cbn [split]; [repeat constructor|].
  rewrite (ws_delim c Hc). constructor; [reflexivity | exact IH].
Qed.

Definition coordword (w : str) : Prop := clean ds9_delims w /\ w <> [].
Lemma coordword_not_blank w : coordword w -> blank w = false.
Proof.
  intros [Hc Hne]. destruct w as [|c w]; [congruence|]. unfold blank. cbn [forallb].
  specialize (Hc c (or_introl eq_refl)). destruct (is_in c ws_chars) eqn:E; [|reflexivity].
  apply ws_delim in E. congruence.
Qed.

Fixpoint pair_text (sep : Z) (vs : list (str * str)) : list (Z * str) :=
  match vs with [] => [] | (a, b) :: t => (sep, a) :: (44, b) :: pair_text 44 t end.
Lemma pair_text_words sep vs : map snd (pair_text sep vs) = flatten vs.
Proof.
  revert sep. induction vs as [|[a b] vs IH]; intros sep; cbn [pair_text map snd flatten]; [reflexivity|].
  rewrite IH. reflexivity.
Qed.
Lemma pair_text_ok sep vs : delim ds9_delims sep -> Forall (fun v => coordword (fst v) /\ coordword (snd v)) vs ->
  Forall (fun dw => delim ds9_delims (fst dw) /\ clean ds9_delims (snd dw)) (pair_text sep vs).
Proof.
  intros Hs H. revert sep Hs.
  induction H as [|[a b] vs [[Ha _] [Hb _]] _ IH]; intros sep Hs; cbn [pair_text]; [constructor|].
  cbn [fst snd] in *. repeat apply Forall_cons.
  - (* sep a *) split; assumption.
  - (* , b *) split; [reflexivity | assumption].
  - (* the later pairs all follow a comma *) apply IH. reflexivity.
Qed.

(* polygon(a1,b1,...,an,bn<more>)<tail>: the n pairs in file order (ra as hours when it contains ':'), then whatever the further
   words and the tail give *)
Lemma poly_sym_pairs head vs more tail :
  clean ds9_delims head -> Forall (fun v => coordword (fst v) /\ coordword (snd v)) vs ->
  Forall (fun dw => delim ds9_delims (fst dw) /\ clean ds9_delims (snd dw)) more ->
  poly_sym (head ++ join (pair_text 40 vs ++ more) ++ 41 :: tail) =
  map units_of vs ++ map poly_units (zipped (map snd more ++ split ds9_delims tail)).
Proof.
  intros Hh Hv Hm. unfold poly_sym. change poly_delims with ds9_delims.
  rewrite split_join; [| apply Forall_app; split; [apply pair_text_ok; [reflexivity | exact Hv] | exact Hm] | reflexivity | exact Hh].
  rewrite poly_pairs_eq, map_app, pair_text_words, <- app_assoc, zipped_flatten, map_app.
  - f_equal. apply map_ext. exact poly_units_eq.
  - revert Hv. apply Forall_impl. intros v [H1 H2]. split; apply coordword_not_blank; assumption.
Qed.

(* polygon(a1,b1,...,an,bn) followed by white space only gives exactly the n pairs, in file order, nothing dropped, nothing
   duplicated *)
Theorem poly_vertices_in_order : forall head vs tail,
  clean ds9_delims head -> Forall (fun v => coordword (fst v) /\ coordword (snd v)) vs ->
  Forall (fun c => is_in c ws_chars = true) tail ->
  poly_sym (head ++ join (pair_text 40 vs) ++ 41 :: tail) = map units_of vs.
Proof.
  intros head vs tail Hh Hv Ht. rewrite <- (app_nil_r (pair_text 40 vs)), poly_sym_pairs by (assumption || constructor).
  cbn [map app]. rewrite (proj1 (zipped_blank _ (split_blank_tail tail Ht))). apply app_nil_r.
Qed.

(* an odd number of coordinates: the last one is dropped silently *)
Theorem poly_odd_drops_last : forall head vs x tail,
  clean ds9_delims head -> Forall (fun v => coordword (fst v) /\ coordword (snd v)) vs -> clean ds9_delims x ->
  Forall (fun c => is_in c ws_chars = true) tail ->
  poly_sym (head ++ join (pair_text 40 vs ++ [(44, x)]) ++ 41 :: tail) = map units_of vs.
Proof.
  intros head vs x tail Hh Hv Hx Ht.
  rewrite poly_sym_pairs; [| exact Hh | exact Hv | repeat constructor; exact Hx].
  cbn [map snd app]. rewrite (proj2 (zipped_blank _ (split_blank_tail tail Ht))). apply app_nil_r.
Qed.

Theorem add_circles_scalar_list : forall hp s ra dec r d,
  add_circles_args hp s (CScalar ra dec r) d = add_circles_args hp s (CVector [ra] [dec] [r]) d.
Proof. reflexivity. Qed.

(* n circles in one call = the union of what was there and the n one-circle regions *)
Theorem add_circles_union : forall hp s ras decs rs d q,
  Inv s -> depth_ok d ->
  (absP (add_circles_args hp s (CVector ras decs rs) d) q <->
   absP s q \/ exists c, In c (combine (combine ras decs) rs) /\
                         absP (add_circles_args hp (init (depth s)) (CScalar (fst (fst c)) (snd (fst c)) (snd c)) d) q).
Proof.
  intros hp s ras decs rs d q HI Hd. unfold add_circles_args. cbn [circles_of].
  assert (HD : 1 <= depth s) by apply HI.
  rewrite add_circles_absP by assumption. apply or_iff_compat_l.
  split; intros [[[a b] r] [Hc Hq]]; exists (a, b, r); cbn [fst snd] in *.
  - split; [exact Hc|]. apply (add_circle_init_absP hp (depth s) (a, b, r) d q HD Hd). exact Hq.
  - split; [exact Hc|]. apply (add_circle_init_absP hp (depth s) (a, b, r) d q HD Hd). exact Hq.
Qed.

Lemma selects_ge v thr : selects v thr = match v with Some x => thr <=? x | None => false end.
Proof. destruct v; reflexivity. Qed.

Lemma in_enumerate {A} (l : list A) : forall i j a, In (j, a) (enumerate i l) <-> (i <= j /\ nth_error l (Z.to_nat (j - i)) = Some a).
Proof.
  induction l as [|x l IH]; intros i j a; cbn [enumerate In].
  - split; [tauto|]. intros [_ H]. destruct (Z.to_nat (j - i)); discriminate.
  - rewrite IH. split.
    + intros [E|[H1 H2]].
      * injection E as <- <-. split; [lia|]. rewrite Z.sub_diag. reflexivity.
      * split; [lia|]. replace (Z.to_nat (j - i)) with (S (Z.to_nat (j - (i + 1)))) by lia. exact H2.
    + intros [H1 H2]. destruct (Z.eq_dec i j) as [->|Hne].
      * left. rewrite Z.sub_diag in H2. cbn in H2. congruence.
      * right. split; [lia|]. replace (Z.to_nat (j - i)) with (S (Z.to_nat (j - (i + 1)))) in H2 by lia. exact H2.
Qed.

Definition pixel_value (img : image) (r c : Z) : option (option Z) :=
  match nth_error img (Z.to_nat r) with Some row => nth_error row (Z.to_nat c) | None => None end.

(* which pixels are taken: exactly those with a (non-NaN) value >= threshold; (row, col) *)
Theorem selected_spec : forall img thr r c,
  In (r, c) (selected img thr) <-> 0 <= r /\ 0 <= c /\ exists x, pixel_value img r c = Some (Some x) /\ thr <= x.
Proof.
  intros img thr r c. unfold selected, pixel_value. rewrite in_flat_map. split.
  - intros [[i row] [Hi Hin]]. cbn [fst snd] in Hin. apply in_map_iff in Hin. destruct Hin as [[j v] [E Hf]].
    cbn [fst] in E. injection E as <- <-. apply filter_In in Hf. destruct Hf as [Hj Hs]. cbn [snd] in Hs.
    apply in_enumerate in Hi. apply in_enumerate in Hj. rewrite Z.sub_0_r in *. destruct Hi as [Hi0 Hi], Hj as [Hj0 Hj].
    rewrite selects_ge in Hs. destruct v as [x|]; [|discriminate]. apply Z.leb_le in Hs.
    split; [exact Hi0|]. split; [exact Hj0|]. exists x. rewrite Hi. split; assumption.
  - intros [Hr [Hc [x [Hv Hx]]]]. destruct (nth_error img (Z.to_nat r)) as [row|] eqn:Er; [|discriminate].
    exists (r, row). split; [apply in_enumerate; rewrite Z.sub_0_r; split; assumption|]. cbn [fst snd].
    apply in_map_iff. exists (c, Some x). split; [reflexivity|]. apply filter_In. split.
    + apply in_enumerate. rewrite Z.sub_0_r. split; assumption.
    + cbn [snd]. rewrite selects_ge. apply Z.leb_le. exact Hx.
Qed.

Lemma rad_latitude x : (- 90 < x < 90)%R -> (- (PI / 2) < rad x < PI / 2)%R.
Proof. intros H. unfold rad. pose proof PI_RGT_0. split; nra. Qed.

Section MaskProofs.
  Variable hp : healpy.
  Variable vec2pix : Z -> bool -> vec -> Z.
  Variable pix2world : R -> R -> Z -> R * R.
  Hypothesis H_nested : H5_nested hp.
  (* V_vec2pix: away from the poles (where the vector forgets phi) vec2pix of the direction (theta, phi) is the pixel ang2pix gives for it; V_valid: a valid pixel number *)
  Hypothesis V_vec2pix : forall d t p, (0 < t < PI)%R -> vec2pix d true (ang2vec hp t p) = ang2pix hp d true t p.
  Hypothesis V_valid : forall d v, 1 <= d -> (0 <= vec2pix d true v < 12 * 4 ^ d).

  Lemma mask2mim_eq D img thr :
    mask2mim hp vec2pix pix2world D img thr = add_many (init D) D [map (mask_pix hp vec2pix pix2world D) (selected img thr)].
  Proof. reflexivity. Qed.

  (* the image pixel (row r, column c) is looked up at all_pix2world(c, r, 0) and numbered at depth D in the nested scheme *)
  Lemma mask_pix_vec D r c : let s := pix2world (IZR c) (IZR r) 0 in
    mask_pix hp vec2pix pix2world D (r, c) = vec2pix D true (sky2vec hp (rad (fst s), rad (snd s))).
  Proof. reflexivity. Qed.

  Lemma mask_pix_eq D r c : let s := pix2world (IZR c) (IZR r) 0 in
    (- 90 < snd s < 90)%R ->
    mask_pix hp vec2pix pix2world D (r, c) = ang2pix hp D true (PI / 2 - rad (snd s)) (rad (fst s)).
  Proof.
    intros s Hs. rewrite mask_pix_vec, sky2vec_eq. apply V_vec2pix. pose proof (rad_latitude _ Hs). lra.
  Qed.

  Lemma pixs_valid D l : 1 <= D -> Forall (valid_pix D) [map (mask_pix hp vec2pix pix2world D) l].
  Proof.
    intros HD. constructor; [|constructor]. apply Forall_map, Forall_forall. intros [r c] _.
    rewrite mask_pix_vec. apply V_valid. exact HD.
  Qed.

  (* the sky position of (the centre of) every selected image pixel is inside the region, asked in degrees as the WCS gives
     it or in radians *)
  Theorem mask2mim_covers : forall D img thr r c, 1 <= D -> In (r, c) (selected img thr) ->
    let s := pix2world (IZR c) (IZR r) 0 in (- 90 < snd s < 90)%R ->
    sky_within1 hp (mask2mim hp vec2pix pix2world D img thr) (Some (fst s)) (Some (snd s)) true = true /\
    sky_within1 hp (mask2mim hp vec2pix pix2world D img thr) (Some (rad (fst s))) (Some (rad (snd s))) false = true.
  Proof.
    intros D img thr r c HD Hin s Hs. rewrite degin_same. cbn [omap].
    enough (Hw : sky_within1 hp (mask2mim hp vec2pix pix2world D img thr) (Some (rad (fst s))) (Some (rad (snd s))) false = true)
      by (split; exact Hw).
    rewrite mask2mim_eq. pose proof (rad_latitude _ Hs).
    apply (within_add_many_init hp H_nested); [lia | apply pixs_valid; exact HD | lra |].
    eexists. split; [left; reflexivity|]. apply in_map_iff. exists (r, c). split; [apply mask_pix_eq; exact Hs | exact Hin].
  Qed.

  (* ... and conversely (one HEALPix cell of depth D is the resolution): a position inside the region lies in the same depth-D
     pixel as the sky position of some selected image pixel *)
  Theorem mask2mim_only : forall D img thr ra dec, 1 <= D -> (- (PI / 2) <= dec <= PI / 2)%R ->
    (forall r c, In (r, c) (selected img thr) -> (- 90 < snd (pix2world (IZR c) (IZR r) 0) < 90)%R) ->
    sky_within1 hp (mask2mim hp vec2pix pix2world D img thr) (Some ra) (Some dec) false = true ->
    exists r c, In (r, c) (selected img thr) /\
      let s := pix2world (IZR c) (IZR r) 0 in
      ang2pix hp D true (PI / 2 - dec) ra = ang2pix hp D true (PI / 2 - rad (snd s)) (rad (fst s)).
  Proof.
    intros D img thr ra dec HD Hdec Hall Hw. rewrite mask2mim_eq in Hw.
    apply (within_add_many_init hp H_nested) in Hw; [| lia | apply pixs_valid; exact HD | exact Hdec].
    destruct Hw as [ps [[<-|[]] Hin]]. apply in_map_iff in Hin. destruct Hin as [[r c] [E Hsel]].
    exists r, c. split; [exact Hsel|]. cbn zeta. rewrite <- E. apply mask_pix_eq. apply Hall. exact Hsel.
  Qed.
End MaskProofs.
