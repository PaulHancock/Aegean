(* C15 - proofs about Model/FitsTools.v.
   One characterising lemma per generated leaf of Gen/FitsTools.v (the only places where the leaves are
   unfolded; afterwards they are opaque); compress and expand as equations on well-formed input; the
   property lemmas used by Props/C15.v, for any interpolator that satisfies the library contract
   Interp.rgi_spec.  Axiom-free. *)
From Coq Require Import ZArith QArith Qfield Lia Bool List String.
From Aegean Require Import Lib.Lists Lib.Keywords Lib.Interp Gen.FitsTools Model.FitsTools.
Import ListNotations.
Open Scope string_scope.
Open Scope Z_scope.

Lemma comp_factor_ok_spec f : comp_factor_ok f = true <-> 0 < f.
Proof. unfold comp_factor_ok. rewrite Z.ltb_lt. reflexivity. Qed.

Lemma ceil_div_spec r f : 0 < f ->
  let n := if 0 <? r mod f then r / f + 1 else r / f in (n - 1) * f < r <= n * f.
Proof.
  intros Hf. pose proof (Z.div_mod r f ltac:(lia)) as D. pose proof (Z.mod_pos_bound r f Hf) as B.
  destruct (0 <? r mod f) eqn:E; [apply Z.ltb_lt in E|apply Z.ltb_ge in E]; nia.
Qed.

(* nx, ny are the ceilings of rows / factor, cols / factor *)
Lemma comp_nx_spec r c f : 0 < f -> (comp_nx r c f - 1) * f < r <= comp_nx r c f * f.
Proof. exact (ceil_div_spec r f). Qed.

Lemma comp_ny_spec r c f : 0 < f -> (comp_ny r c f - 1) * f < c <= comp_ny r c f * f.
Proof. exact (ceil_div_spec c f). Qed.

Lemma comp_lcx_spec r c f : 0 < f -> 0 <= comp_lcx r c f < f.
Proof. intros Hf. unfold comp_lcx. cbv zeta. apply Z.mod_pos_bound. exact Hf. Qed.

Lemma comp_lcy_spec r c f : 0 < f -> 0 <= comp_lcy r c f < f.
Proof. intros Hf. unfold comp_lcy. cbv zeta. apply Z.mod_pos_bound. exact Hf. Qed.

Lemma comp_out_rows_spec nx ny : comp_out_rows nx ny = nx + 1.
Proof. reflexivity. Qed.
Lemma comp_out_cols_spec nx ny : comp_out_cols nx ny = ny + 1.
Proof. reflexivity. Qed.
Lemma comp_fill_rows_spec nx ny : comp_fill_rows nx ny = nx.
Proof. reflexivity. Qed.
Lemma comp_fill_cols_spec nx ny : comp_fill_cols nx ny = ny.
Proof. reflexivity. Qed.
Lemma comp_stride_rows_spec f : comp_stride_rows f = f.
Proof. reflexivity. Qed.
Lemma comp_stride_cols_spec f : comp_stride_cols f = f.
Proof. reflexivity. Qed.

Lemma comp_bn_spec f n1 n2 lx ly :
  comp_bn f n1 n2 lx ly =
  [("BN_CFAC", f); ("BN_NPX1", n1); ("BN_NPX2", n2); ("BN_RPX1", lx); ("BN_RPX2", ly)].
Proof. reflexivity. Qed.

Lemma compressed_keys_spec : compressed_keys = ["BN_CFAC"; "BN_NPX1"; "BN_NPX2"; "BN_RPX1"; "BN_RPX2"].
Proof. reflexivity. Qed.

(* expand deletes exactly the keywords that is_compressed tests *)
Lemma exp_deleted_spec k : existsb (String.eqb k) exp_deleted = existsb (String.eqb k) compressed_keys.
Proof. reflexivity. Qed.

Lemma exp_factor_key_spec : exp_factor_key = "BN_CFAC".
Proof. reflexivity. Qed.
(* the grid has BN_NPX2 rows and BN_NPX1 columns *)
Lemma exp_grid_rows_key_spec : exp_grid_rows_key = "BN_NPX2".
Proof. reflexivity. Qed.
Lemma exp_grid_cols_key_spec : exp_grid_cols_key = "BN_NPX1".
Proof. reflexivity. Qed.
(* the two residual keywords are read (crossed, which is harmless: both are < factor) *)
Lemma exp_lcx_key_spec : In exp_lcx_key ["BN_RPX1"; "BN_RPX2"].
Proof. cbn. tauto. Qed.
Lemma exp_lcy_key_spec : In exp_lcy_key ["BN_RPX1"; "BN_RPX2"].
Proof. cbn. tauto. Qed.

Lemma exp_row_node_spec k lcx lcy f : 0 <= lcx < f -> 0 <= lcy < f -> exp_row_node k lcx lcy f = k * f.
Proof. intros H1 H2. unfold exp_row_node. rewrite Z.quot_small by assumption. lia. Qed.
Lemma exp_col_node_spec k lcx lcy f : 0 <= lcx < f -> 0 <= lcy < f -> exp_col_node k lcx lcy f = k * f.
Proof. intros H1 H2. unfold exp_col_node. rewrite Z.quot_small by assumption. lia. Qed.

Lemma scale_keys1_same : exp_scale_keys1 = comp_scale_keys1.
Proof. reflexivity. Qed.
Lemma scale_keys2_same : exp_scale_keys2 = comp_scale_keys2.
Proof. reflexivity. Qed.

Lemma scale_keys_distinct k1 k2 : In k1 comp_scale_keys1 -> In k2 comp_scale_keys2 ->
  k1 <> k2 /\ k1 <> "CRPIX1" /\ k1 <> "CRPIX2" /\ k2 <> "CRPIX1" /\ k2 <> "CRPIX2".
Proof.
  unfold comp_scale_keys1, comp_scale_keys2. cbn [In]. intros H1 H2.
  repeat match goal with H : _ \/ _ |- _ => destruct H | H : False |- _ => destruct H end;
    subst; repeat split; discriminate.
Qed.

Lemma scale_inv v f : ~ (f == 0)%Q -> (exp_scale (comp_scale v f) f == v)%Q.
Proof. intros N. unfold exp_scale, comp_scale. field. exact N. Qed.
Lemma crpix1_inv c f : ~ (f == 0)%Q -> (exp_crpix1 (comp_crpix1 c f) f == c)%Q.
Proof. intros N. unfold exp_crpix1, comp_crpix1. field. exact N. Qed.
Lemma crpix2_inv c f : ~ (f == 0)%Q -> (exp_crpix2 (comp_crpix2 c f) f == c)%Q.
Proof. intros N. unfold exp_crpix2, comp_crpix2. field. exact N. Qed.

Global Opaque comp_factor_ok comp_nx comp_ny comp_lcx comp_lcy comp_out_rows comp_out_cols
  comp_fill_rows comp_fill_cols comp_stride_rows comp_stride_cols comp_bn compressed_keys exp_deleted
  exp_factor_key exp_grid_rows_key exp_grid_cols_key exp_lcx_key exp_lcy_key exp_row_node exp_col_node
  exp_scale_keys1 exp_scale_keys2 comp_scale_keys1 comp_scale_keys2
  comp_scale exp_scale comp_crpix1 comp_crpix2 exp_crpix1 exp_crpix2.

Definition option_Qeq (a b : option Q) : Prop :=
  match a, b with Some x, Some y => (x == y)%Q | None, None => True | _, _ => False end.

(* the input is a well-formed FITS image: NAXISn agree with the array, the cards that compress
   rewrites are present (one of CDELT1 / CD1_1, one of CDELT2 / CD2_2, CRPIX1, CRPIX2) *)
Definition rkw_ok (h : kws Q) : Prop :=
  (exists k, In k comp_scale_keys1 /\ khas k h = true) /\
  (exists k, In k comp_scale_keys2 /\ khas k h = true) /\
  khas "CRPIX1" h = true /\ khas "CRPIX2" h = true.

Definition wf (im : image) : Prop :=
  2 <= rows im /\ 2 <= cols im /\
  kget "NAXIS1" (ikw im) = Some (cols im) /\ kget "NAXIS2" (ikw im) = Some (rows im) /\
  rkw_ok (rkw im).

Definition same_keys (h h' : kws Q) : Prop := forall k, khas k h' = khas k h.

Lemma same_keys_trans h1 h2 h3 : same_keys h1 h2 -> same_keys h2 h3 -> same_keys h1 h3.
Proof. intros A B k. rewrite B, A. reflexivity. Qed.

(* Both header passes rewrite four cards one after the other.  `rewrites o h l`: o is the header h
   with the values of the cards of l replaced in turn - the keys stay, and a look-up goes through
   the replacements of its own card. *)
Definition cmap (k : string) (g : Q -> Q) (k' : string) : Q -> Q := if String.eqb k' k then g else fun v => v.

Definition look (l : list (string * (Q -> Q))) (k : string) (o : option Q) : option Q :=
  fold_left (fun o kg => option_map (cmap (fst kg) (snd kg) k) o) l o.

Definition rewrites (o : option (kws Q)) (h : kws Q) (l : list (string * (Q -> Q))) : Prop :=
  exists h', o = Some h' /\ same_keys h h' /\ forall k, kget k h' = look l k (kget k h).

Lemma rewrites_kupd k g h : khas k h = true -> rewrites (kupd k g h) h [(k, g)].
Proof.
  intros H. destruct (kupd_present k g h H) as (h' & E). exists h'. split; [exact E|]. split.
  - intros k'. exact (kupd_khas _ _ _ _ k' E).
  - intros k'. rewrite (proj2 (kupd_some _ _ _ _ E)). cbn. unfold cmap.
    destruct (String.eqb k' k); [reflexivity|]. destruct (kget k' h); reflexivity.
Qed.

Lemma rewrites_scale_first keys g h K : first_present keys h = Some K -> rewrites (scale_first keys g h) h [(K, g)].
Proof. intros F. unfold scale_first. rewrite F. apply rewrites_kupd, (first_present_in _ _ _ F). Qed.

Lemma rewrites_bind o u h kg l :
  rewrites o h [kg] -> (forall h1, same_keys h h1 -> rewrites (u h1) h1 l) -> rewrites (obind o u) h (kg :: l).
Proof.
  intros (h1 & -> & S1 & G1) H. destruct (H h1 S1) as (h2 & E & S2 & G2).
  exists h2. split; [exact E|]. split; [exact (same_keys_trans _ _ _ S1 S2)|].
  intros k. rewrite G2, G1. reflexivity.
Qed.

(* the cards that both passes rewrite: K1, K2 are the scale cards that are present *)
Definition cards (h : kws Q) (K1 K2 : string) : Prop :=
  first_present comp_scale_keys1 h = Some K1 /\ first_present comp_scale_keys2 h = Some K2 /\
  khas "CRPIX1" h = true /\ khas "CRPIX2" h = true.

Lemma rkw_ok_cards h : rkw_ok h -> exists K1 K2, cards h K1 K2.
Proof.
  intros ((k1 & I1 & H1) & (k2 & I2 & H2) & H3 & H4).
  destruct (first_present_exists _ h k1 I1 H1) as (K1 & F1). destruct (first_present_exists _ h k2 I2 H2) as (K2 & F2).
  exists K1, K2. split; auto.
Qed.

Lemma cards_same h h' K1 K2 : same_keys h h' -> cards h K1 K2 -> cards h' K1 K2.
Proof. intros S (F1 & F2 & H3 & H4). unfold cards. rewrite !(first_present_ext _ _ _ S), !S. auto. Qed.

Lemma compress_rkw_spec h fq K1 K2 : cards h K1 K2 ->
  rewrites (compress_rkw h fq) h
    [(K1, fun v => comp_scale v fq); (K2, fun v => comp_scale v fq);
     ("CRPIX1", fun c => comp_crpix1 c fq); ("CRPIX2", fun c => comp_crpix2 c fq)].
Proof.
  intros C. unfold compress_rkw.
  apply rewrites_bind; [apply rewrites_scale_first, C|]. intros h1 S1. apply (cards_same _ _ _ _ S1) in C.
  apply rewrites_bind; [apply rewrites_scale_first, C|]. intros h2 S2. apply (cards_same _ _ _ _ S2) in C.
  apply rewrites_bind; [apply rewrites_kupd, C|]. intros h3 S3. apply (cards_same _ _ _ _ S3) in C.
  apply rewrites_kupd, C.
Qed.

Lemma expand_rkw_spec h fq K1 K2 : cards h K1 K2 ->
  rewrites (expand_rkw h fq) h
    [("CRPIX1", fun c => exp_crpix1 c fq); ("CRPIX2", fun c => exp_crpix2 c fq);
     (K1, fun v => exp_scale v fq); (K2, fun v => exp_scale v fq)].
Proof.
  intros C. unfold expand_rkw. rewrite scale_keys1_same, scale_keys2_same.
  apply rewrites_bind; [apply rewrites_kupd, C|]. intros h1 S1. apply (cards_same _ _ _ _ S1) in C.
  apply rewrites_bind; [apply rewrites_kupd, C|]. intros h2 S2. apply (cards_same _ _ _ _ S2) in C.
  apply rewrites_bind; [apply rewrites_scale_first, C|]. intros h3 S3. apply (cards_same _ _ _ _ S3) in C.
  apply rewrites_scale_first, C.
Qed.

(* ceiling division, as numpy computes len(data[::s]) *)
Lemma slice_len_unique c s n : 0 < s -> (n - 1) * s < c <= n * s -> slice_len c s = n.
Proof.
  intros Hs H. unfold slice_len. symmetry.
  apply Z.div_unique with (r := c + s - 1 - s * n); lia.
Qed.

(* compress on an image whose NAXIS cards are present: the shape test of the slice assignment
   always passes, so only the factor test and the header updates can fail *)
Lemma compress_eq im f n1 n2 : kget "NAXIS1" (ikw im) = Some n1 -> kget "NAXIS2" (ikw im) = Some n2 ->
  compress im f =
  if comp_factor_ok f then
    option_map (fun r => {| rows := comp_nx (rows im) (cols im) f + 1; cols := comp_ny (rows im) (cols im) f + 1;
                            pix := compress_pix im f; ikw := compress_ikw im f n1 n2; rkw := r |})
               (compress_rkw (rkw im) (inject_Z f))
  else None.
Proof.
  intros N1 N2. unfold compress. destruct (comp_factor_ok f) eqn:G; cbn [negb]; [|reflexivity].
  apply comp_factor_ok_spec in G.
  rewrite (comp_stride_rows_spec f), (comp_stride_cols_spec f), comp_fill_rows_spec, comp_fill_cols_spec,
    comp_out_rows_spec, comp_out_cols_spec.
  rewrite (slice_len_unique (rows im) f (comp_nx (rows im) (cols im) f)) by auto using comp_nx_spec.
  rewrite (slice_len_unique (cols im) f (comp_ny (rows im) (cols im) f)) by auto using comp_ny_spec.
  rewrite !Z.min_l, !Z.eqb_refl, N1, N2 by lia. destruct (compress_rkw (rkw im) (inject_Z f)); reflexivity.
Qed.

Lemma compress_ikw_get im f n1 n2 k :
  kget k (compress_ikw im f n1 n2) =
  if String.eqb k "NAXIS2" then Some (comp_nx (rows im) (cols im) f + 1)
  else if String.eqb k "NAXIS1" then Some (comp_ny (rows im) (cols im) f + 1)
  else if String.eqb k "BN_RPX2" then Some (comp_lcy (rows im) (cols im) f)
  else if String.eqb k "BN_RPX1" then Some (comp_lcx (rows im) (cols im) f)
  else if String.eqb k "BN_NPX2" then Some n2
  else if String.eqb k "BN_NPX1" then Some n1
  else if String.eqb k "BN_CFAC" then Some f
  else kget k (ikw im).
Proof.
  unfold compress_ikw. rewrite comp_bn_spec, comp_out_rows_spec, comp_out_cols_spec.
  unfold ksetall. cbn [fold_left fst snd]. rewrite !kget_kset. reflexivity.
Qed.

Lemma kget_ksetall_other {A} k (kvs : list (string * A)) : forall h,
  ~ In k (map fst kvs) -> kget k (ksetall kvs h) = kget k h.
Proof.
  unfold ksetall. induction kvs as [|[k0 v0] t IH]; cbn [fold_left map In fst snd]; intros h N; [reflexivity|].
  rewrite IH, kget_kset by tauto. destruct (String.eqb_spec k k0); [exfalso; auto|reflexivity].
Qed.

Lemma compress_ikw_get_other im f n1 n2 k : k <> "NAXIS2" -> k <> "NAXIS1" -> ~ In k compressed_keys ->
  kget k (compress_ikw im f n1 n2) = kget k (ikw im).
Proof.
  intros D2 D1 NI. unfold compress_ikw. rewrite !kget_kset.
  apply String.eqb_neq in D2, D1. rewrite D2, D1. apply kget_ksetall_other.
  rewrite comp_bn_spec. rewrite compressed_keys_spec in NI. exact NI.
Qed.

Lemma compress_is_compressed im f n1 n2 : is_compressed (compress_ikw im f n1 n2) = true.
Proof.
  unfold is_compressed. apply forallb_forall. intros k Hk. unfold khas. rewrite compress_ikw_get.
  rewrite compressed_keys_spec in Hk. cbn [In] in Hk.
  repeat (destruct Hk as [<-|Hk]; [reflexivity|]). destruct Hk.
Qed.

Lemma expand_ikw_get h R C k :
  kget k (expand_ikw h R C) =
  if String.eqb k "NAXIS2" then Some R
  else if String.eqb k "NAXIS1" then Some C
  else if existsb (String.eqb k) compressed_keys then None else kget k h.
Proof. unfold expand_ikw. rewrite !kget_kset, kget_kdelall, exp_deleted_spec. reflexivity. Qed.

(* an axis with nodes k * f, k = 0 .. n, where n = ceil(c / f): strictly increasing, starts at 0 and
   reaches beyond the last pixel c - 1 - also when f > c *)
Lemma axis_nodes_Z (node : Z -> Z) f c n : 0 < f -> 1 <= c -> (n - 1) * f < c <= n * f ->
  (forall k, node k = k * f) ->
  2 <= n + 1 /\ (forall k, 0 <= k -> k + 1 < n + 1 -> node k < node (k + 1)) /\
  node 0 <= 0 /\ c - 1 <= node (n + 1 - 1).
Proof. intros Hf Hc Hn G. split; [nia|]. split; [intros k K0 K1|]; rewrite !G; nia. Qed.

Lemma node_axes r c f lcx lcy : 1 <= r -> 1 <= c -> 1 <= f -> 0 <= lcx < f -> 0 <= lcy < f ->
  let nr := comp_out_rows (comp_nx r c f) (comp_ny r c f) in
  let nc := comp_out_cols (comp_nx r c f) (comp_ny r c f) in
  (2 <= nr /\ (forall k, 0 <= k -> k + 1 < nr -> exp_row_node k lcx lcy f < exp_row_node (k + 1) lcx lcy f) /\
   exp_row_node 0 lcx lcy f <= 0 /\ r - 1 <= exp_row_node (nr - 1) lcx lcy f) /\
  (2 <= nc /\ (forall k, 0 <= k -> k + 1 < nc -> exp_col_node k lcx lcy f < exp_col_node (k + 1) lcx lcy f) /\
   exp_col_node 0 lcx lcy f <= 0 /\ c - 1 <= exp_col_node (nc - 1) lcx lcy f).
Proof.
  intros Hr Hc Hf B1 B2. cbv zeta.
  rewrite (comp_out_rows_spec (comp_nx r c f) (comp_ny r c f)), (comp_out_cols_spec (comp_nx r c f) (comp_ny r c f)).
  split; [apply (axis_nodes_Z (fun k => exp_row_node k lcx lcy f) f r)
         | apply (axis_nodes_Z (fun k => exp_col_node k lcx lcy f) f c)]; try lia.
  - apply comp_nx_spec; lia.
  - intros k. apply exp_row_node_spec; assumption.
  - apply comp_ny_spec; lia.
  - intros k. apply exp_col_node_spec; assumption.
Qed.

Definition rnode (lcx lcy f : Z) : Z -> Q := fun k => inject_Z (exp_row_node k lcx lcy f).
Definition cnode (lcx lcy f : Z) : Z -> Q := fun k => inject_Z (exp_col_node k lcx lcy f).

Section WithInterpolator.
Variable rgi : interpolator.

(* expand on a compressed image, once the five cards it reads are known *)
Definition expand_with (c : image) (f R C lcx lcy : Z) : option image :=
  if axis_ok (rnode lcx lcy f) (rows c) 0%Q (inject_Z (R - 1)) && axis_ok (cnode lcx lcy f) (cols c) 0%Q (inject_Z (C - 1))
  then option_map (fun r => {| rows := R; cols := C;
                               pix := fun x y => rgi (rnode lcx lcy f) (rows c) (cnode lcx lcy f) (cols c) (pix c)
                                                     (inject_Z x) (inject_Z y);
                               ikw := expand_ikw (ikw c) R C; rkw := r |})
                  (expand_rkw (rkw c) (inject_Z f))
  else None.

Lemma expand_eq c f R C lcx lcy :
  is_compressed (ikw c) = true ->
  kget exp_factor_key (ikw c) = Some f -> kget exp_grid_rows_key (ikw c) = Some R ->
  kget exp_grid_cols_key (ikw c) = Some C -> kget exp_lcx_key (ikw c) = Some lcx ->
  kget exp_lcy_key (ikw c) = Some lcy ->
  expand rgi c = expand_with c f R C lcx lcy.
Proof.
  intros IC G1 G2 G3 G4 G5. unfold expand, expand_with. rewrite IC, G1, G2, G3, G4, G5. cbn [negb obind].
  destruct (_ && _); [|reflexivity]. destruct (expand_rkw (rkw c) (inject_Z f)); reflexivity.
Qed.

Lemma rnode_eq lcx lcy f k : 0 <= lcx < f -> 0 <= lcy < f -> rnode lcx lcy f k = inject_Z (k * f).
Proof. intros. unfold rnode. rewrite exp_row_node_spec by assumption. reflexivity. Qed.
Lemma cnode_eq lcx lcy f k : 0 <= lcx < f -> 0 <= lcy < f -> cnode lcx lcy f k = inject_Z (k * f).
Proof. intros. unfold cnode. rewrite exp_col_node_spec by assumption. reflexivity. Qed.

Lemma axis_ok_Z (node : Z -> Z) n c :
  2 <= n /\ (forall k, 0 <= k -> k + 1 < n -> node k < node (k + 1)) /\ node 0 <= 0 /\ c - 1 <= node (n - 1) ->
  axis_ok (fun k => inject_Z (node k)) n 0%Q (inject_Z (c - 1)) = true.
Proof.
  intros (H2 & Hi & H0 & Hl). apply axis_ok_iff. split; [exact H2|]. split; [|split].
  - intros k K0 K1. rewrite <- Zlt_Qlt. apply Hi; assumption.
  - change 0%Q with (inject_Z 0). rewrite <- Zle_Qle. exact H0.
  - rewrite <- Zle_Qle. exact Hl.
Qed.

(* one axis of the decimation: fill = n = ceil(c / f) strided samples, then the copied last one *)
Lemma src_idx_node c n f i : 0 <= i < n -> src_idx c n (n + 1) f i = Some (i * f).
Proof.
  intros Hi. unfold src_idx.
  destruct (Z.eqb_spec i (n + 1 - 1)); [lia|]. destruct (Z.ltb_spec i n); [reflexivity|lia].
Qed.

Lemma src_idx_in c n f i : 0 < f -> 1 <= c -> (n - 1) * f < c <= n * f -> 0 <= i < n + 1 ->
  exists a, src_idx c n (n + 1) f i = Some a /\ 0 <= a < c.
Proof.
  intros Hf Hc Hn Hi. unfold src_idx.
  destruct (Z.eqb_spec i (n + 1 - 1)); [eexists; split; [reflexivity|lia]|].
  destruct (Z.ltb_spec i n); [|lia]. eexists; split; [reflexivity|nia].
Qed.

Lemma row_src_eq im f i :
  row_src im f i = src_idx (rows im) (comp_nx (rows im) (cols im) f) (comp_nx (rows im) (cols im) f + 1) f i.
Proof.
  unfold row_src. cbv zeta. rewrite comp_fill_rows_spec, comp_out_rows_spec, (comp_stride_rows_spec f). reflexivity.
Qed.

Lemma col_src_eq im f j :
  col_src im f j = src_idx (cols im) (comp_ny (rows im) (cols im) f) (comp_ny (rows im) (cols im) f + 1) f j.
Proof.
  unfold col_src. cbv zeta. rewrite comp_fill_cols_spec, comp_out_cols_spec, (comp_stride_cols_spec f). reflexivity.
Qed.

Lemma compress_pix_node im f i j :
  0 <= i < comp_nx (rows im) (cols im) f -> 0 <= j < comp_ny (rows im) (cols im) f ->
  compress_pix im f i j = pix im (i * f) (j * f).
Proof.
  intros Hi Hj. unfold compress_pix. rewrite row_src_eq, col_src_eq, !src_idx_node by assumption. reflexivity.
Qed.

Lemma compress_pix_from_image im f i j : 0 < f -> 1 <= rows im -> 1 <= cols im ->
  0 <= i < comp_nx (rows im) (cols im) f + 1 -> 0 <= j < comp_ny (rows im) (cols im) f + 1 ->
  exists a b, 0 <= a < rows im /\ 0 <= b < cols im /\ compress_pix im f i j = pix im a b.
Proof.
  intros Hf Hr Hc Hi Hj. unfold compress_pix. rewrite row_src_eq, col_src_eq.
  destruct (src_idx_in (rows im) _ f i Hf Hr (comp_nx_spec _ _ _ Hf) Hi) as (a & -> & Ha).
  destruct (src_idx_in (cols im) _ f j Hf Hc (comp_ny_spec _ _ _ Hf) Hj) as (b & -> & Hb).
  exists a, b. auto.
Qed.

Lemma existsb_eqb_false k l : ~ In k l -> existsb (String.eqb k) l = false.
Proof.
  rewrite <- not_true_iff_false, (existsb_eqb_In String.eqb String.eqb_eq). tauto.
Qed.

Lemma compress_ikw_residual im f n1 n2 key : 0 < f -> In key ["BN_RPX1"; "BN_RPX2"] ->
  exists l, kget key (compress_ikw im f n1 n2) = Some l /\ 0 <= l < f.
Proof.
  intros Hf [<-|[<-|[]]]; rewrite compress_ikw_get; cbn; eexists; (split; [reflexivity|]);
    [apply comp_lcx_spec | apply comp_lcy_spec]; exact Hf.
Qed.

Lemma expand_compressed c im f : 0 < f -> ikw c = compress_ikw im f (cols im) (rows im) ->
  exists lcx lcy, 0 <= lcx < f /\ 0 <= lcy < f /\ expand rgi c = expand_with c f (rows im) (cols im) lcx lcy.
Proof.
  intros Hf Ic.
  destruct (compress_ikw_residual im f (cols im) (rows im) _ Hf exp_lcx_key_spec) as (lcx & G4 & B4).
  destruct (compress_ikw_residual im f (cols im) (rows im) _ Hf exp_lcy_key_spec) as (lcy & G5 & B5).
  exists lcx, lcy. split; [exact B4|]. split; [exact B5|]. apply expand_eq; rewrite Ic; try assumption.
  - apply compress_is_compressed.
  - rewrite exp_factor_key_spec, compress_ikw_get. reflexivity.
  - rewrite exp_grid_rows_key_spec, compress_ikw_get. reflexivity.
  - rewrite exp_grid_cols_key_spec, compress_ikw_get. reflexivity.
Qed.

Lemma roundtrip_ok im f : wf im -> 1 <= f -> exists c e, compress im f = Some c /\ expand rgi c = Some e.
Proof.
  intros (Hr & Hc & N1 & N2 & RK) Hf.
  destruct (rkw_ok_cards _ RK) as (K1 & K2 & Cd).
  destruct (compress_rkw_spec _ (inject_Z f) K1 K2 Cd) as (r & E & S & _).
  rewrite (compress_eq im f _ _ N1 N2), (proj2 (comp_factor_ok_spec f)), E by lia.
  cbn [option_map]. set (c := Build_image _ _ _ _ _).
  enough (exists e, expand rgi c = Some e) as (e & He) by eauto.
  destruct (expand_compressed c im f ltac:(lia) eq_refl) as (lcx & lcy & B4 & B5 & ->).
  destruct (node_axes (rows im) (cols im) f lcx lcy) as [AR AC]; try lia.
  rewrite comp_out_rows_spec in AR. rewrite comp_out_cols_spec in AC.
  unfold expand_with, rnode, cnode, c. cbn [rows cols rkw]. rewrite (axis_ok_Z _ _ _ AR), (axis_ok_Z _ _ _ AC).
  destruct (expand_rkw_spec r (inject_Z f) K1 K2 (cards_same _ _ _ _ S Cd)) as (r' & -> & _). cbn. eauto.
Qed.

Section RoundTrip.
Hypothesis Hrgi : rgi_spec rgi.
Variables (im c e : image) (f : Z).
Hypothesis W : wf im.
Hypothesis HC : compress im f = Some c.
Hypothesis HE : expand rgi c = Some e.

Let nx := comp_nx (rows im) (cols im) f.
Let ny := comp_ny (rows im) (cols im) f.

Lemma rt_compressed : 0 < f /\ rows c = nx + 1 /\ cols c = ny + 1 /\ pix c = compress_pix im f /\
  ikw c = compress_ikw im f (cols im) (rows im) /\ compress_rkw (rkw im) (inject_Z f) = Some (rkw c).
Proof.
  destruct W as (_ & _ & N1 & N2 & _). pose proof HC as H. rewrite (compress_eq im f _ _ N1 N2) in H.
  destruct (comp_factor_ok f) eqn:G; [|discriminate]. apply comp_factor_ok_spec in G.
  destruct (compress_rkw (rkw im) (inject_Z f)) as [r|]; [|discriminate]. injection H as <-. cbn. auto 10.
Qed.

Lemma rt_expanded : expand_rkw (rkw c) (inject_Z f) = Some (rkw e) /\ rows e = rows im /\ cols e = cols im /\
  ikw e = expand_ikw (compress_ikw im f (cols im) (rows im)) (rows im) (cols im) /\
  exists lcx lcy, 0 <= lcx < f /\ 0 <= lcy < f /\
    increasing (rnode lcx lcy f) (nx + 1) /\ increasing (cnode lcx lcy f) (ny + 1) /\
    forall x y, pix e x y = rgi (rnode lcx lcy f) (nx + 1) (cnode lcx lcy f) (ny + 1) (compress_pix im f)
                                (inject_Z x) (inject_Z y).
Proof.
  destruct rt_compressed as (Hf & Rc & Cc & Pc & Ic & _).
  destruct (expand_compressed c im f Hf Ic) as (lcx & lcy & B4 & B5 & E).
  pose proof HE as H. rewrite E in H. unfold expand_with in H. rewrite Rc, Cc, Pc, Ic in H.
  destruct (axis_ok (rnode lcx lcy f) _ _ _) eqn:A1; [|discriminate].
  destruct (axis_ok (cnode lcx lcy f) _ _ _) eqn:A2; [|discriminate].
  apply axis_ok_iff in A1 as (_ & IR & _), A2 as (_ & IC & _).
  destruct (expand_rkw (rkw c) (inject_Z f)) as [r|]; [|discriminate]. injection H as <-. cbn.
  repeat split. exists lcx, lcy. auto 10.
Qed.

Lemma rt_shape : rows e = rows im /\ cols e = cols im /\
  kget "NAXIS1" (ikw e) = Some (cols im) /\ kget "NAXIS2" (ikw e) = Some (rows im).
Proof. destruct rt_expanded as (_ & Re & Ce & Ie & _). rewrite Ie, !expand_ikw_get. cbn. auto. Qed.

Lemma rt_keywords_removed :
  is_compressed (ikw e) = false /\ (forall k, In k compressed_keys -> kget k (ikw e) = None) /\
  (forall k, ~ In k compressed_keys -> kget k (ikw e) = kget k (ikw im)).
Proof.
  destruct rt_expanded as (_ & _ & _ & Ie & _). destruct W as (_ & _ & N1 & N2 & _).
  assert (D : forall k, In k compressed_keys -> kget k (ikw e) = None).
  { intros k. rewrite Ie, expand_ikw_get, compressed_keys_spec. cbn [In].
    intros H. repeat (destruct H as [<-|H]; [reflexivity|]). destruct H. }
  split; [|split; [exact D|]].
  - unfold is_compressed. rewrite compressed_keys_spec. cbn [forallb]. unfold khas.
    rewrite D; [reflexivity|]. rewrite compressed_keys_spec. left. reflexivity.
  - intros k NI. rewrite Ie, expand_ikw_get, (existsb_eqb_false _ _ NI).
    destruct (String.eqb_spec k "NAXIS2") as [->|D2]; [symmetry; exact N2|].
    destruct (String.eqb_spec k "NAXIS1") as [->|D1]; [symmetry; exact N1|].
    apply compress_ikw_get_other; assumption.
Qed.

Lemma rt_wcs k : option_Qeq (kget k (rkw e)) (kget k (rkw im)).
Proof.
  destruct rt_compressed as (Hf & _ & _ & _ & _ & RKc). destruct rt_expanded as (RKe & _). destruct W as (_ & _ & _ & _ & R).
  destruct (rkw_ok_cards _ R) as (K1 & K2 & Cd).
  destruct (compress_rkw_spec _ (inject_Z f) K1 K2 Cd) as (hc & Ec & Sc & Gc). rewrite RKc in Ec. injection Ec as <-.
  destruct (expand_rkw_spec _ (inject_Z f) K1 K2 (cards_same _ _ _ _ Sc Cd)) as (he & Ee & _ & Ge).
  rewrite RKe in Ee. injection Ee as <-. rewrite Ge, Gc.
  destruct Cd as (F1 & F2 & _).
  destruct (scale_keys_distinct K1 K2 (proj1 (first_present_in _ _ _ F1)) (proj1 (first_present_in _ _ _ F2)))
    as (D12 & D13 & D14 & D23 & D24).
  assert (NZ : ~ (inject_Z f == 0)%Q).
  { intros ZZ. assert (f = 0) by (apply inject_Z_injective; exact ZZ). lia. }
  destruct (kget k (rkw im)) as [v|]; [|exact I]. cbn. unfold cmap.
  (* k is the second scale key, the first, CRPIX2, CRPIX1 or another key; the four are distinct *)
  destruct (String.eqb_spec k K2) as [E2|N2].
  - destruct (String.eqb_spec k K1) as [E1|_]; [exfalso; congruence|].
    destruct (String.eqb_spec k "CRPIX2") as [E4|_]; [exfalso; congruence|].
    destruct (String.eqb_spec k "CRPIX1") as [E3|_]; [exfalso; congruence|].
    apply scale_inv, NZ.
  - destruct (String.eqb_spec k K1) as [E1|N1].
    + destruct (String.eqb_spec k "CRPIX2") as [E4|_]; [exfalso; congruence|].
      destruct (String.eqb_spec k "CRPIX1") as [E3|_]; [exfalso; congruence|].
      apply scale_inv, NZ.
    + destruct (String.eqb_spec k "CRPIX2") as [E4|N4].
      * destruct (String.eqb_spec k "CRPIX1") as [E3|_]; [exfalso; congruence|].
        apply crpix2_inv, NZ.
      * destruct (String.eqb_spec k "CRPIX1") as [E3|N3]; [apply crpix1_inv, NZ | reflexivity].
Qed.

Lemma rt_grid_bounds : 0 < f /\ (nx - 1) * f < rows im <= nx * f /\ (ny - 1) * f < cols im <= ny * f.
Proof.
  destruct rt_compressed as (Hf & _). split; [exact Hf|].
  split; [apply comp_nx_spec|apply comp_ny_spec]; exact Hf.
Qed.

Lemma rt_pix_cell x y i j :
  0 <= i < nx -> 0 <= j < ny -> i * f <= x <= (i + 1) * f -> j * f <= y <= (j + 1) * f ->
  (pix e x y == cell_value (fun k => inject_Z (k * f)) (fun k => inject_Z (k * f)) (compress_pix im f) i j
                           (inject_Z x) (inject_Z y))%Q.
Proof.
  intros Hi Hj Hx Hy.
  destruct rt_expanded as (_ & _ & _ & _ & lcx & lcy & B4 & B5 & IR & IC & Pe). rewrite Pe.
  rewrite (Hrgi _ _ _ _ _ _ _ i j IR IC).
  - unfold cell_value. rewrite !rnode_eq, !cnode_eq by assumption. reflexivity.
  - unfold in_cell. rewrite !rnode_eq by assumption. rewrite <- !Zle_Qle. lia.
  - unfold in_cell. rewrite !cnode_eq by assumption. rewrite <- !Zle_Qle. lia.
Qed.

Lemma node_lt a b : 0 < f -> a < b -> (inject_Z (a * f) < inject_Z (b * f))%Q.
Proof. intros Hf H. rewrite <- Zlt_Qlt. nia. Qed.

Lemma rt_nodes_exact i j : 0 <= i -> 0 <= j -> i * f < rows im -> j * f < cols im ->
  (pix e (i * f) (j * f) == pix im (i * f) (j * f))%Q.
Proof.
  intros Hi Hj Hx Hy. destruct rt_grid_bounds as (Hf & NX & NY).
  assert (I : 0 <= i < nx) by nia. assert (J : 0 <= j < ny) by nia.
  rewrite (rt_pix_cell (i * f) (j * f) i j I J) by lia.
  rewrite cell_value_corner; try reflexivity; try (apply node_lt; lia).
  rewrite compress_pix_node by assumption. reflexivity.
Qed.

Lemma rt_in_range lo hi :
  (forall i j, 0 <= i < rows c -> 0 <= j < cols c -> (lo <= pix c i j)%Q /\ (pix c i j <= hi)%Q) ->
  forall x y, 0 <= x < rows e -> 0 <= y < cols e -> (lo <= pix e x y)%Q /\ (pix e x y <= hi)%Q.
Proof.
  intros HV x y Hx Hy. destruct rt_grid_bounds as (Hf & NX & NY).
  destruct rt_compressed as (_ & Rc & Cc & Pc & _). destruct rt_expanded as (_ & Re & Ce & _).
  rewrite Re in Hx. rewrite Ce in Hy. rewrite Rc, Cc, Pc in HV.
  pose proof (Z.div_mod x f ltac:(lia)) as DX. pose proof (Z.mod_pos_bound x f Hf) as BX.
  pose proof (Z.div_mod y f ltac:(lia)) as DY. pose proof (Z.mod_pos_bound y f Hf) as BY.
  assert (I : 0 <= x / f < nx) by (split; [apply Z.div_pos; lia|nia]).
  assert (J : 0 <= y / f < ny) by (split; [apply Z.div_pos; lia|nia]).
  rewrite (rt_pix_cell x y (x / f) (y / f) I J) by nia.
  apply cell_value_range; try (apply node_lt; lia); try (rewrite <- Zle_Qle; nia).
  intros a b Ha Hb. apply HV; lia.
Qed.

(* the compressed samples are pixels of the image, so the expanded image stays within the range
   of the image as well *)
Lemma rt_in_image_range lo hi :
  (forall a b, 0 <= a < rows im -> 0 <= b < cols im -> (lo <= pix im a b)%Q /\ (pix im a b <= hi)%Q) ->
  forall x y, 0 <= x < rows e -> 0 <= y < cols e -> (lo <= pix e x y)%Q /\ (pix e x y <= hi)%Q.
Proof.
  intros HV. apply rt_in_range. intros i j Hi Hj.
  destruct rt_compressed as (Hf & Rc & Cc & Pc & _). destruct W as (Hr & Hc & _).
  rewrite Rc in Hi. rewrite Cc in Hj. rewrite Pc.
  destruct (compress_pix_from_image im f i j Hf ltac:(lia) ltac:(lia) Hi Hj) as (a & b & Ha & Hb & ->).
  apply HV; assumption.
Qed.

(* complete cells: the four corners (i, j) .. (i+1, j+1) are nodes inside the image *)
Lemma rt_bilinear_complete_cell i j : 0 <= i -> 0 <= j -> (i + 1) * f < rows im -> (j + 1) * f < cols im ->
  forall x y, i * f <= x <= (i + 1) * f -> j * f <= y <= (j + 1) * f ->
  (pix e x y == cell_value (fun k => inject_Z (k * f)) (fun k => inject_Z (k * f))
                           (fun p q => pix im (p * f) (q * f)) i j (inject_Z x) (inject_Z y))%Q.
Proof.
  intros Hi Hj Hx Hy x y X Y. destruct rt_grid_bounds as (Hf & NX & NY).
  assert (I : 0 <= i + 1 < nx) by nia. assert (J : 0 <= j + 1 < ny) by nia.
  rewrite (rt_pix_cell x y i j) by lia.
  apply cell_value_ext. intros p q Hp Hq. rewrite compress_pix_node by lia. reflexivity.
Qed.

Lemma rt_affine_complete_cell i j (a b d : Q) : 0 <= i -> 0 <= j -> (i + 1) * f < rows im -> (j + 1) * f < cols im ->
  (forall x y, i * f <= x <= (i + 1) * f -> j * f <= y <= (j + 1) * f ->
               (pix im x y == a + b * inject_Z x + d * inject_Z y)%Q) ->
  forall x y, i * f <= x <= (i + 1) * f -> j * f <= y <= (j + 1) * f -> (pix e x y == pix im x y)%Q.
Proof.
  intros Hi Hj Hx Hy HA x y X Y. destruct rt_grid_bounds as (Hf & NX & NY).
  rewrite (rt_bilinear_complete_cell i j Hi Hj Hx Hy x y X Y).
  rewrite (cell_value_affine _ _ _ i j _ _ a b d); try (apply node_lt; lia).
  - symmetry. apply HA; assumption.
  - intros p q Hp Hq. apply HA; nia.
Qed.

End RoundTrip.

End WithInterpolator.
