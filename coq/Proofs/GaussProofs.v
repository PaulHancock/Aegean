(* C04 - the generated derivative expressions are the true partial derivatives of the Gaussian (d_*_ok, partials) and of a
   sum of Gaussians (multi); the rows of the Jacobian and the slots of the standard errors are numbered alike (rows, slot_own);
   whitening / noise scaling is linear, so the matrix handed to lmfit is the Jacobian of the residual handed to it (whitened). *)
From Coq Require Import Reals Lra List Arith Lia.
From Coquelicot Require Import Coquelicot.
From Aegean Require Import Lib.RBase Lib.Lists Gen.Gauss Model.FitModel.
Import ListNotations.
Open Scope R_scope.

(* the Gaussian is amp * exp (-q/2), q the quadratic form of the rotated offsets; every parameter except amp enters through q,
   so one application of the chain rule serves five of the six derivatives *)
Definition rot_quad (dx dy sx sy theta : R) : R :=
  (dx * cos (rad theta) + dy * sin (rad theta)) ^ 2 / sx ^ 2 + (dx * sin (rad theta) - dy * cos (rad theta)) ^ 2 / sy ^ 2.
Lemma gauss_rot_quad x y amp xo yo sx sy theta :
  gauss x y amp xo yo sx sy theta = amp * exp (rot_quad (x - xo) (y - yo) sx sy theta * (IZR (-1) / 2)).
Proof. reflexivity. Qed.
Lemma gauss_chain (q : R -> R) amp t0 dq : is_derive q t0 dq ->
  is_derive (fun t => amp * exp (q t * (IZR (-1) / 2))) t0 (amp * exp (q t0 * (IZR (-1) / 2)) * (dq * (IZR (-1) / 2))).
Proof.
  intros H. auto_derive; [exists dq; exact H|].
  replace (Derive (fun x : R => q x) t0) with dq by (symmetry; apply is_derive_unique, H). ring.
Qed.
(* goal: is_derive (fun t => gauss ..t..) t0 (generated expression), q = the quadratic form as a function of the parameter,
   Hx : sx <> 0, Hy : sy <> 0 (auto_derive asks for products of sx, sy to be non-zero: auto; field for sx, sy themselves):
   chain rule, the derivative of q by auto_derive, and what remains is an identity of rational functions of sin, cos and exp *)
Ltac by_chain q Hx Hy :=
  cbv zeta; rewrite gauss_rot_quad;
  evar_last; [apply (gauss_chain q); unfold rot_quad, rad; auto_derive; [repeat split; auto | reflexivity]|];
  unfold rot_quad, rad, Rdiv; field; repeat split; first [exact Hx | exact Hy].

Lemma d_amp_ok x y amp xo yo sx sy theta : amp <> 0 ->
  is_derive (fun t => gauss x y t xo yo sx sy theta) amp (d_amp x y amp xo yo sx sy theta).
Proof.
  intros Ha. unfold d_amp. cbv zeta. rewrite gauss_rot_quad.
  change (fun t => gauss x y t xo yo sx sy theta) with (fun t => t * exp (rot_quad (x - xo) (y - yo) sx sy theta * (IZR (-1) / 2))).
  auto_derive; [exact I|]. field. exact Ha.
Qed.
Lemma d_xo_ok x y amp xo yo sx sy theta : sx <> 0 -> sy <> 0 ->
  is_derive (fun t => gauss x y amp t yo sx sy theta) xo (d_xo x y amp xo yo sx sy theta).
Proof. intros Hx Hy. unfold d_xo. by_chain (fun t => rot_quad (x - t) (y - yo) sx sy theta) Hx Hy. Qed.
Lemma d_yo_ok x y amp xo yo sx sy theta : sx <> 0 -> sy <> 0 ->
  is_derive (fun t => gauss x y amp xo t sx sy theta) yo (d_yo x y amp xo yo sx sy theta).
Proof. intros Hx Hy. unfold d_yo. by_chain (fun t => rot_quad (x - xo) (y - t) sx sy theta) Hx Hy. Qed.
Lemma d_sx_ok x y amp xo yo sx sy theta : sx <> 0 -> sy <> 0 ->
  is_derive (fun t => gauss x y amp xo yo t sy theta) sx (d_sx x y amp xo yo sx sy theta).
Proof. intros Hx Hy. unfold d_sx. by_chain (fun t => rot_quad (x - xo) (y - yo) t sy theta) Hx Hy. Qed.
Lemma d_sy_ok x y amp xo yo sx sy theta : sx <> 0 -> sy <> 0 ->
  is_derive (fun t => gauss x y amp xo yo sx t theta) sy (d_sy x y amp xo yo sx sy theta).
Proof. intros Hx Hy. unfold d_sy. by_chain (fun t => rot_quad (x - xo) (y - yo) sx t theta) Hx Hy. Qed.
(* theta is in DEGREES: the derivative is per degree *)
Lemma d_theta_ok x y amp xo yo sx sy theta : sx <> 0 -> sy <> 0 ->
  is_derive (fun t => gauss x y amp xo yo sx sy t) theta (d_theta x y amp xo yo sx sy theta).
Proof. intros Hx Hy. unfold d_theta. by_chain (fun t => rot_quad (x - xo) (y - yo) sx sy t) Hx Hy. Qed.

Definition regular (c : comp) : Prop := c_amp c <> 0 /\ c_sx c <> 0 /\ c_sy c <> 0.

Lemma partials : forall (c : comp) (p : nat) x y, regular c -> (p < 6)%nat ->
  is_derive (fun t => gauss_c (set_par c p t) x y) (get_par c p) (deriv p c x y).
Proof.
  intros [a xo yo sx sy th] p x y (Ha & Hx & Hy) Hp. cbn [c_amp c_sx c_sy] in Ha, Hx, Hy.
  destruct p as [|[|[|[|[|[|p]]]]]];
    [apply d_amp_ok | apply d_xo_ok | apply d_yo_ok | apply d_sx_ok | apply d_sy_ok | apply d_theta_ok | lia]; assumption.
Qed.

(* the model is the sum; only component i depends on its own parameter *)
Lemma model_upd : forall cs i c' x y c, nth_error cs i = Some c ->
  model (upd cs i c') x y = model cs x y - gauss_c c x y + gauss_c c' x y.
Proof.
  induction cs as [|h t IH]; intros i c' x y c H.
  - destruct i; discriminate.
  - destruct i as [|i]; cbn [upd model fold_right] in *.
    + injection H as ->. fold (model t x y). ring.
    + fold (model (upd t i c') x y). fold (model t x y). rewrite (IH i c' x y c H). ring.
Qed.

Lemma multi : forall cs i c p x y, nth_error cs i = Some c -> regular c -> (p < 6)%nat ->
  is_derive (fun t => model (upd cs i (set_par c p t)) x y) (get_par c p) (deriv p c x y).
Proof.
  intros cs i c p x y Hn Hr Hp.
  apply is_derive_ext with (f := fun t => model cs x y - gauss_c c x y + gauss_c (set_par c p t) x y).
  - intros t. symmetry. apply model_upd. exact Hn.
  - evar_last. apply @is_derive_plus. apply is_derive_const. apply partials; assumption.
    rewrite plus_zero_l. reflexivity.
Qed.

Lemma rows : forall cs vs x y k i p c,
  nth_error (slots jacobian_order 0 vs) k = Some (i, p) -> nth_error cs i = Some c ->
  nth_error (jac_rows cs vs x y) k = Some (deriv p c x y).
Proof.
  intros cs vs x y k i p c Hk Hc. unfold jac_rows. rewrite nth_error_map, Hk. cbn. rewrite Hc. reflexivity.
Qed.

Lemma stderr_order_same : stderr_order = jacobian_order.
Proof. reflexivity. Qed.
Lemma stderr_no_restart : stderr_index_restarts = false.
Proof. reflexivity. Qed.

Lemma nth_error_combine_seq {A} (l : list A) : forall j k x, nth_error l k = Some x ->
  nth_error (combine l (seq j (length l))) k = Some (x, (j + k)%nat).
Proof.
  induction l as [|h t IH]; intros j [|k] x H; try discriminate H; cbn [length seq combine nth_error] in *.
  - injection H as ->. rewrite Nat.add_0_r. reflexivity.
  - rewrite (IH (S j) k x H), Nat.add_succ_r. reflexivity.
Qed.

(* without the restart, covar_errors numbers the free parameters of all components consecutively *)
Lemma assign_noreset : forall order vs i j,
  assign false order i j vs = combine (slots order i vs) (seq j (length (slots order i vs))).
Proof.
  intros order vs. induction vs as [|v r IH]; intros i j; cbn [assign slots]; [reflexivity|].
  rewrite IH, app_length, seq_app. symmetry. apply combine_app. symmetry. apply seq_length.
Qed.

Lemma slot_own : forall vs,
  stderr_slots vs = combine (slots jacobian_order 0 vs) (seq 0 (length (slots jacobian_order 0 vs))).
Proof. intros vs. unfold stderr_slots. rewrite stderr_no_restart, stderr_order_same. apply assign_noreset. Qed.

Lemma whitened : forall pts (f : R -> R -> R -> R) (g : R -> R -> R) t0,
  (forall x y, is_derive (fun t => f t x y) t0 (g x y)) ->
  is_derive (fun t => lin_residual pts (f t)) t0 (lin_jacobian pts g).
Proof.
  intros pts f g t0 H. induction pts as [|[[[x y] d] w] r IH]; cbn [lin_residual lin_jacobian fold_right].
  - apply @is_derive_const.
  - apply @is_derive_plus; [|exact IH].
    evar_last; [apply is_derive_scal, @is_derive_minus; [apply H | apply @is_derive_const]|].
    unfold minus, plus, opp, zero; cbn. ring.
Qed.
