(* C13 (extension) - lemmas about Model/Globals.v.  The generated leaves of Gen/Globals.v enter through one equation per modelled
   function, proved by evaluating them (loaded_eq, load_aux_eq, make_bkg_rms_eq, load_globals_gen_eq): a changed leaf
   breaks the equation of its function, and everything else follows from the equations. *)
From Coq Require Import ZArith Bool List Lia String.
From Aegean Require Import Gen.Globals Model.Globals.
Import ListNotations.
Open Scope Z_scope.

Lemma lg_early_return_eq : lg_early_return = true. Proof. reflexivity. Qed.
(* holds on the tree with `if cube_index is None: cube_index = 0` in load_globals; on the tree without it this lemma fails *)
Lemma lg_cube_default_eq : lg_cube_default_first_plane = true. Proof. reflexivity. Qed.
Lemma lg_stages_eq : lg_stages = [1; 7; 2; 3; 4; 5; 6; 8; 9; 10; 11; 12; 2]. Proof. reflexivity. Qed.
Lemma lg_curve_size_eq : lg_curve_size = 3. Proof. reflexivity. Qed.
Lemma lg_curve_peak_eq : lg_curve_peak = -1. Proof. reflexivity. Qed.
Lemma lg_curve_trough_eq : lg_curve_trough = 1. Proof. reflexivity. Qed.
Lemma lg_curve_trough_last_eq : lg_curve_trough_last = true. Proof. reflexivity. Qed.
Lemma nats_eqb_eq : forall a b, nats_eqb a b = true <-> a = b.
Proof.
  induction a as [|x a IH]; intros [|y b]; cbn; split; intro H; try reflexivity; try discriminate.
  - apply andb_true_iff in H. destruct H as [H1 H2]. apply Nat.eqb_eq in H1. apply IH in H2. subst. reflexivity.
  - injection H as -> ->. rewrite Nat.eqb_refl. cbn. apply IH. reflexivity.
Qed.
Lemma shape_eqb_eq : forall a b, shape_eqb a b = true <-> shape a = shape b.
Proof. intros. unfold shape_eqb. apply nats_eqb_eq. Qed.
Lemma shape_rows : forall (g : list px -> list px) a, (forall r, List.length (g r) = List.length r) -> shape (map g a) = shape a.
Proof. intros g a H. unfold shape. rewrite map_map. apply map_ext, H. Qed.
Lemma shape_neg : forall a, shape (img_neg a) = shape a.
Proof. intro a. apply shape_rows. intro r. apply map_length. Qed.
Lemma shape_eqb_neg_l : forall a b, shape_eqb (img_neg a) b = shape_eqb a b.
Proof. intros a b. unfold shape_eqb. rewrite shape_neg. reflexivity. Qed.
Lemma shape_eqb_neg_r : forall a b, shape_eqb a (img_neg b) = shape_eqb a b.
Proof. intros a b. unfold shape_eqb. rewrite shape_neg. reflexivity. Qed.
Lemma shape_const : forall v a, shape (const_like v a) = shape a.
Proof. intros v a. apply shape_rows. intro r. apply map_length. Qed.
Lemma map_map2 {A B C} (f : A -> B) (g : B -> C) (a : list (list A)) :
  map (map g) (map (map f) a) = map (map (fun x => g (f x))) a.
Proof. rewrite map_map. apply map_ext. intro r. apply map_map. Qed.
Lemma const_const : forall v w a, const_like v (const_like w a) = const_like v a.
Proof. intros. unfold const_like, img_neg. rewrite map_map2. reflexivity. Qed.
Lemma const_neg_arg : forall v a, const_like v (img_neg a) = const_like v a.
Proof. intros. unfold const_like, img_neg. rewrite map_map2. reflexivity. Qed.
Lemma neg_const : forall v a, img_neg (const_like v a) = const_like (- v) a.
Proof. intros. unfold const_like, img_neg. rewrite map_map2. reflexivity. Qed.
Lemma px_sub_neg : forall a b, px_sub (px_neg a) (px_neg b) = px_neg (px_sub a b).
Proof. intros [x|] [y|]; cbn; try reflexivity. f_equal. lia. Qed.
Lemma zip_with_map {A} (f : A -> A -> A) (g : A -> A) : (forall x y, f (g x) (g y) = g (f x y)) ->
  forall a b, zip_with f (map g a) (map g b) = map g (zip_with f a b).
Proof. intro H. induction a as [|x a IH]; intros [|y b]; cbn; try reflexivity. rewrite H, IH. reflexivity. Qed.
Lemma img_sub_neg : forall a b, img_sub (img_neg a) (img_neg b) = img_neg (img_sub a b).
Proof. apply zip_with_map, zip_with_map, px_sub_neg. Qed.
Lemma px_neg_invol : forall p, px_neg (px_neg p) = p.
Proof. intros [x|]; cbn; [f_equal; lia | reflexivity]. Qed.
Lemma img_neg_invol : forall a, img_neg (img_neg a) = a.
Proof.
  intro a. unfold img_neg. rewrite map_map2. rewrite <- (map_id a) at 2. apply map_ext. intro r.
  rewrite <- (map_id r) at 2. apply map_ext. apply px_neg_invol.
Qed.
Lemma zip_with_nth {A} (f : A -> A -> A) : forall a b k x y, nth_error a k = Some x -> nth_error b k = Some y ->
  nth_error (zip_with f a b) k = Some (f x y).
Proof.
  induction a as [|x0 a IH]; intros [|y0 b] [|k] x y Ha Hb; cbn in *; try discriminate.
  - injection Ha as ->. injection Hb as ->. reflexivity.
  - apply IH; assumption.
Qed.
Lemma img_sub_pixel : forall a b r c ra rb x y, nth_error a r = Some ra -> nth_error b r = Some rb ->
  nth_error ra c = Some x -> nth_error rb c = Some y ->
  exists rs, nth_error (img_sub a b) r = Some rs /\ nth_error rs c = Some (px_sub x y).
Proof. intros a b r c ra rb x y Ha Hb Hx Hy. exists (zip_with px_sub ra rb). split; apply zip_with_nth; assumption. Qed.

Lemma loaded_eq : forall f, loaded f = if af_compressed f then af_expanded f else af_stored f.
Proof. reflexivity. Qed.
Lemma load_aux_eq : forall img f, load_aux img f = if shape_eqb (loaded f) img then Some (loaded f) else None.
Proof. reflexivity. Qed.
Lemma loaded_neg : forall f, loaded (neg_aux f) = img_neg (loaded f).
Proof. intro f. rewrite !loaded_eq. destruct f as [[|] s e]; reflexivity. Qed.
Lemma load_aux_neg : forall img f, load_aux (img_neg img) (neg_aux f) = option_map img_neg (load_aux img f).
Proof.
  intros img f. rewrite !load_aux_eq, loaded_neg, shape_eqb_neg_l, shape_eqb_neg_r.
  destruct (shape_eqb (loaded f) img); reflexivity.
Qed.

(* where a map comes from: file > forced value > BANE (b = what BANE would give) *)
Definition map_src (file : option auxfile) (forced : option Z) (b raw : image) : image :=
  match file with Some f => loaded f | None => match forced with Some v => const_like v raw | None => b end end.
Definition file_ok (file : option auxfile) (raw : image) : bool :=
  match file with Some f => shape_eqb (loaded f) raw | None => true end.
(* what load_globals stores once the image plane is selected *)
Definition stored_state (d : bool) (inp : inputs) (raw b r im : image) : state :=
  mkState (Some im) (Some b) (Some r) (if i_do_curve inp then Some (curvature raw) else None) (region_of (i_mask inp))
          (eff_ci_gen d (i_ci inp)).

Lemma map_src_shape : forall file forced b raw, file_ok file raw = true -> shape b = shape raw -> shape (map_src file forced b raw) = shape raw.
Proof.
  intros [f|] forced b raw F Hb; cbn [map_src file_ok] in *.
  - apply shape_eqb_eq, F.
  - destruct forced as [v|]; [apply shape_const | exact Hb].
Qed.

Section Glue.
Variable bane : image -> image * image.

Definition bkg_src (inp : inputs) (raw : image) : image := map_src (i_bkgin inp) (i_bkg inp) (fst (bane raw)) raw.
Definition rms_src (inp : inputs) (raw : image) : image := map_src (i_rmsin inp) (i_rms inp) (snd (bane raw)) raw.
(* the maps before the files are read: _make_bkg_rms is skipped, and the maps stay zero, when both files are given *)
Definition maps0 (inp : inputs) (raw : image) : image * image :=
  if is_some (i_rmsin inp) && is_some (i_bkgin inp) then (const_like 0 raw, const_like 0 raw)
  else (map_src None (i_bkg inp) (fst (bane raw)) raw, map_src None (i_rms inp) (snd (bane raw)) raw).

Lemma make_bkg_rms_eq : forall raw rmsv bkgv,
  make_bkg_rms bane raw rmsv bkgv (const_like 0 raw, const_like 0 raw) =
  (map_src None bkgv (fst (bane raw)) raw, map_src None rmsv (snd (bane raw)) raw).
Proof.
  (* by the generated leaves rms= fills map 2 and bkg= fills map 1 with a constant of the shape of the zero map, and BANE is
     called unless both are forced and supplies each map that was not *)
  intros raw rmsv bkgv. destruct rmsv as [r|], bkgv as [b|]; cbv -[const_like].
  - rewrite !const_const. reflexivity.
  - rewrite const_const. reflexivity.
  - rewrite const_const. reflexivity.
  - reflexivity.
Qed.

(* load_globals as one decision: early return, plane selection, background file, noise file.  A file of the wrong shape leaves
   the raw image and the maps made so far in the object. *)
Lemma load_globals_gen_eq : forall d s0 inp, load_globals_gen bane d s0 inp =
  if is_some (s_img s0) then (s0, true) else
  match select_gen d inp with
  | None => (s0, false)
  | Some raw =>
    if file_ok (i_bkgin inp) raw then
      if file_ok (i_rmsin inp) raw
      then (stored_state d inp raw (bkg_src inp raw) (rms_src inp raw) (img_sub raw (bkg_src inp raw)), true)
      else (stored_state d inp raw (bkg_src inp raw) (snd (maps0 inp raw)) raw, false)
    else (stored_state d inp raw (fst (maps0 inp raw)) (snd (maps0 inp raw)) raw, false)
  end.
Proof.
  intros d s0 inp. unfold load_globals_gen. rewrite lg_early_return_eq, andb_true_l.
  destruct (s_img s0); [reflexivity|]. destruct (select_gen d inp) as [raw|]; [|reflexivity].
  (* _make_bkg_rms runs unless both files are given *)
  replace (if lg_bane_needed _ _ then _ else _) with (maps0 inp raw).
  2:{ unfold maps0, lg_bane_needed. destruct (is_some (i_rmsin inp) && is_some (i_bkgin inp)); cbn [negb].
      - reflexivity.
      - symmetry. apply make_bkg_rms_eq. }
  (* block 1 replaces map 1 by the background file, block 2 replaces map 2 by the noise file; map 1 is subtracted *)
  unfold replace, stored_state, bkg_src, rms_src, maps0, lg_repl1_cond, lg_repl2_cond.
  change lg_repl1_map with 1. change lg_repl1_from with 1. change lg_repl2_map with 2. change lg_repl2_from with 2.
  change lg_sub_operand with 1.
  destruct (i_bkgin inp) as [fb|], (i_rmsin inp) as [fr|];
    cbn [is_some andb pick get_map set_map fst snd Z.eqb Pos.eqb map_src file_ok]; rewrite ?load_aux_eq.
  - destruct (shape_eqb (loaded fb) raw); [|reflexivity].
    cbn [fst snd]. destruct (shape_eqb (loaded fr) raw); reflexivity.
  - destruct (shape_eqb (loaded fb) raw); reflexivity.
  - destruct (shape_eqb (loaded fr) raw); reflexivity.
  - reflexivity.
Qed.

Lemma load_globals_gen_true : forall d s0 inp s, s_img s0 = None -> load_globals_gen bane d s0 inp = (s, true) ->
  exists raw, select_gen d inp = Some raw /\ file_ok (i_bkgin inp) raw = true /\ file_ok (i_rmsin inp) raw = true /\
    s = stored_state d inp raw (bkg_src inp raw) (rms_src inp raw) (img_sub raw (bkg_src inp raw)).
Proof.
  intros d s0 inp s H0. rewrite load_globals_gen_eq, H0. cbn [is_some].
  destruct (select_gen d inp) as [raw|]; [|discriminate]. exists raw.
  destruct (file_ok (i_bkgin inp) raw), (file_ok (i_rmsin inp) raw); try discriminate.
  injection H as <-. repeat split.
Qed.

Lemma success_char : forall inp s, globals bane inp = (s, true) ->
  exists raw, select inp = Some raw /\ file_ok (i_bkgin inp) raw = true /\ file_ok (i_rmsin inp) raw = true /\
    s = stored_state lg_cube_default_first_plane inp raw (bkg_src inp raw) (rms_src inp raw) (img_sub raw (bkg_src inp raw)).
Proof. intros inp s. apply load_globals_gen_true. reflexivity. Qed.

Lemma background_subtracted_once : forall inp s, globals bane inp = (s, true) ->
  exists raw bkg, select inp = Some raw /\ s_bkg s = Some bkg /\ s_img s = Some (img_sub raw bkg).
Proof.
  intros inp s H. apply success_char in H. destruct H as [raw [Hs [_ [_ ->]]]].
  exists raw, (bkg_src inp raw). repeat split. exact Hs.
Qed.

Lemma map_sources : forall inp s, globals bane inp = (s, true) ->
  exists raw, select inp = Some raw /\ s_bkg s = Some (bkg_src inp raw) /\ s_rms s = Some (rms_src inp raw) /\
              s_region s = region_of (i_mask inp).
Proof.
  intros inp s H. apply success_char in H. destruct H as [raw [Hs [_ [_ ->]]]].
  exists raw. repeat split. exact Hs.
Qed.

Lemma forced_rms_constant : forall inp s v, globals bane inp = (s, true) -> i_rmsin inp = None -> i_rms inp = Some v ->
  exists raw, select inp = Some raw /\ s_rms s = Some (const_like v raw).
Proof.
  intros inp s v H Hn Hv. apply map_sources in H. destruct H as [raw [Hs [_ [Hr _]]]]. exists raw. split; [exact Hs|].
  rewrite Hr. unfold rms_src. rewrite Hn, Hv. reflexivity.
Qed.

Lemma curvature_from_raw : forall inp s, globals bane inp = (s, true) ->
  exists raw, select inp = Some raw /\ s_curve s = if i_do_curve inp then Some (curvature raw) else None.
Proof.
  intros inp s H. apply success_char in H. destruct H as [raw [Hs [_ [_ ->]]]].
  exists raw. split; [exact Hs | reflexivity].
Qed.

(* every map of a completed call has the shape of the image, provided BANE keeps the shape *)
Lemma shapes : (forall a, shape (fst (bane a)) = shape a /\ shape (snd (bane a)) = shape a) ->
  forall inp s, globals bane inp = (s, true) ->
  exists raw bkg rms, select inp = Some raw /\ s_bkg s = Some bkg /\ s_rms s = Some rms /\ shape bkg = shape raw /\ shape rms = shape raw.
Proof.
  intros Hb inp s H. apply success_char in H. destruct H as [raw [Hs [Fb [Fr ->]]]].
  exists raw, (bkg_src inp raw), (rms_src inp raw). split; [exact Hs|]. split; [reflexivity|]. split; [reflexivity|]. split.
  - apply map_src_shape; [exact Fb | apply Hb].
  - apply map_src_shape; [exact Fr | apply Hb].
Qed.

(* the early return: an object that holds data ignores every later request *)
Lemma reload_is_noop : forall s0 inp, s_img s0 <> None -> load_globals bane s0 inp = (s0, true).
Proof.
  intros s0 inp H. unfold load_globals. rewrite load_globals_gen_eq.
  destruct (s_img s0); [reflexivity | contradiction].
Qed.

(* and an exception inside _load_aux_image leaves the raw image behind, so the next call is a no-op as well *)
Lemma failed_load_sticks : forall inp s inp', globals bane inp = (s, false) -> select inp <> None ->
  load_globals bane s inp' = (s, true) /\ s_img s = select inp.
Proof.
  intros inp s inp' H Hs. assert (Hi : s_img s = select inp).
  { revert H Hs. unfold globals, load_globals, select. rewrite load_globals_gen_eq. cbn [fresh s_img is_some].
    destruct (select_gen _ inp) as [raw|]; [intros H _ | contradiction].
    (* both ways of failing store the raw image *)
    destruct (file_ok (i_bkgin inp) raw); [destruct (file_ok (i_rmsin inp) raw); [discriminate|] |].
    - injection H as <-. reflexivity.
    - injection H as <-. reflexivity. }
  split; [|exact Hi]. apply reload_is_noop. rewrite Hi. exact Hs.
Qed.
End Glue.

(* without the default a 3-D file read with cube_index = None raises and nothing is stored *)
Lemma cube_none_raises_gen : forall bane inp, i_is3d inp = true -> i_ci inp = None -> load_globals_gen bane false fresh inp = (fresh, false).
Proof.
  intros bane inp H3 H. rewrite load_globals_gen_eq. unfold select_gen. rewrite H3, H. reflexivity.
Qed.

Lemma select_gen_neg : forall d inp, select_gen d (neg_inputs inp) = option_map img_neg (select_gen d inp).
Proof.
  intros d inp. unfold select_gen, neg_inputs. cbn [i_is3d i_planes i_ci].
  destruct (i_is3d inp); [destruct (eff_ci_gen d (i_ci inp)); [|reflexivity] |]; apply nth_error_map.
Qed.
Lemma file_ok_neg : forall file raw, file_ok (option_map neg_aux file) (img_neg raw) = file_ok file raw.
Proof.
  intros [f|] raw; [|reflexivity]. cbn [file_ok option_map].
  rewrite loaded_neg, shape_eqb_neg_l. apply shape_eqb_neg_r.
Qed.
Lemma file_ok_neg_raw : forall file raw, file_ok file (img_neg raw) = file_ok file raw.
Proof. intros [f|] raw; [|reflexivity]. apply shape_eqb_neg_r. Qed.
Lemma map_src_neg : forall file forced b raw,
  map_src (option_map neg_aux file) (option_map Z.opp forced) (img_neg b) (img_neg raw) = img_neg (map_src file forced b raw).
Proof.
  intros [f|] forced b raw; cbn [map_src option_map].
  - apply loaded_neg.
  - destruct forced as [v|]; cbn [option_map]; [|reflexivity]. rewrite const_neg_arg, neg_const. reflexivity.
Qed.
Lemma map_src_neg_raw : forall file forced b raw, map_src file forced b (img_neg raw) = map_src file forced b raw.
Proof.
  intros [f|] forced b raw; cbn [map_src]; [reflexivity|].
  destruct forced as [v|]; [apply const_neg_arg | reflexivity].
Qed.

(* the curvature map would not follow (peaks and troughs swap), hence do_curve = false *)
Lemma stored_state_neg : forall d inp raw b r im, i_do_curve inp = false ->
  stored_state d (neg_inputs inp) (img_neg raw) (img_neg b) r (img_neg im) = neg_state (stored_state d inp raw b r im).
Proof. intros d inp raw b r im Hc. unfold stored_state, neg_state. cbn. rewrite Hc. reflexivity. Qed.

Section Negation.
Variable bane : image -> image * image.
Hypothesis bane_neg : forall a, bane (img_neg a) = (img_neg (fst (bane a)), snd (bane a)).

Lemma bkg_src_neg : forall inp raw, bkg_src bane (neg_inputs inp) (img_neg raw) = img_neg (bkg_src bane inp raw).
Proof. intros inp raw. unfold bkg_src. rewrite bane_neg. apply map_src_neg. Qed.
Lemma rms_src_neg : forall inp raw, rms_src bane (neg_inputs inp) (img_neg raw) = rms_src bane inp raw.
Proof. intros inp raw. unfold rms_src. rewrite bane_neg. apply map_src_neg_raw. Qed.
Lemma maps0_neg : forall inp raw, maps0 bane (neg_inputs inp) (img_neg raw) = (img_neg (fst (maps0 bane inp raw)), snd (maps0 bane inp raw)).
Proof.
  intros inp raw. unfold maps0. cbn [neg_inputs i_rmsin i_bkgin i_rms i_bkg]. rewrite bane_neg.
  destruct (i_rmsin inp), (i_bkgin inp); cbn [option_map is_some andb fst snd].
  1: (* both files: the zero maps *) rewrite const_neg_arg, neg_const; reflexivity.
  all: rewrite (map_src_neg None), map_src_neg_raw; reflexivity.
Qed.

(* negating the image, the background file and the forced background negates data and background of whatever the call leaves in
   the object, completed or not *)
Lemma load_globals_gen_neg : forall d s0 inp, i_do_curve inp = false ->
  load_globals_gen bane d (neg_state s0) (neg_inputs inp) =
  (neg_state (fst (load_globals_gen bane d s0 inp)), snd (load_globals_gen bane d s0 inp)).
Proof.
  intros d s0 inp Hc. rewrite !load_globals_gen_eq, select_gen_neg.
  change (s_img (neg_state s0)) with (option_map img_neg (s_img s0)).
  change (i_bkgin (neg_inputs inp)) with (option_map neg_aux (i_bkgin inp)). change (i_rmsin (neg_inputs inp)) with (i_rmsin inp).
  destruct (s_img s0); [reflexivity|]. destruct (select_gen d inp) as [raw|]; [|reflexivity]. cbn [option_map is_some].
  rewrite file_ok_neg, file_ok_neg_raw, bkg_src_neg, rms_src_neg, maps0_neg, img_sub_neg.
  destruct (file_ok (i_bkgin inp) raw); [destruct (file_ok (i_rmsin inp) raw) |]; cbn [fst snd]; f_equal;
    apply stored_state_neg, Hc.
Qed.
End Negation.

Lemma negation : forall bane, (forall a, bane (img_neg a) = (img_neg (fst (bane a)), snd (bane a))) ->
  forall inp s, i_do_curve inp = false -> globals bane inp = (s, true) ->
  globals bane (neg_inputs inp) = (neg_state s, true).
Proof.
  intros bane Hn inp s Hc H. unfold globals, load_globals in *.
  change fresh with (neg_state fresh). rewrite (load_globals_gen_neg bane Hn _ fresh _ Hc), H. reflexivity.
Qed.

(* the stand-in for BANE used by the harness satisfies the two hypotheses (non-vacuity) *)
Lemma fold_left_opp : forall f g : Z -> Z -> Z, (forall a b, - f a b = g (- a) (- b)) ->
  forall l x, fold_left g (map Z.opp l) (- x) = - fold_left f l x.
Proof. intros f g H. induction l as [|y l IH]; intro x; cbn; [reflexivity|]. rewrite <- H. apply IH. Qed.
Lemma finite_values_neg : forall a, finite_values (img_neg a) = map Z.opp (finite_values a).
Proof.
  intro a. unfold finite_values, img_neg. induction a as [|r a IH]; cbn; [reflexivity|]. rewrite map_app, <- IH. f_equal.
  induction r as [|p r IHr]; cbn; [reflexivity|]. rewrite map_app, <- IHr. destruct p; reflexivity.
Qed.
Lemma bane_fake_neg : forall a, bane_fake (img_neg a) = (img_neg (fst (bane_fake a)), snd (bane_fake a)).
Proof.
  intro a. unfold bane_fake. cbn [fst snd]. f_equal.
  - unfold img_neg. rewrite !map_map. apply map_ext. intro r. symmetry. apply map_rev.
  - rewrite const_neg_arg, finite_values_neg. f_equal. unfold zmax_list, zmin_list.
    destruct (finite_values a) as [|x l]; cbn [map]; [reflexivity|].
    (* max and min exchange under negation, so their difference stays *)
    rewrite (fold_left_opp _ _ Z.opp_max_distr), (fold_left_opp _ _ Z.opp_min_distr). lia.
Qed.
Lemma bane_fake_shape : forall a, shape (fst (bane_fake a)) = shape a /\ shape (snd (bane_fake a)) = shape a.
Proof.
  intro a. unfold bane_fake. cbn [fst snd]. split; [apply shape_rows, rev_length | apply shape_const].
Qed.
