(* C02 - the box an island reports (Model/IslandBox.v: calc_bounding_box on the island's own pixels of its cut-out) is the tight
   box Model.IslandModel.bbox, whatever the cut-out. *)
From Coq Require Import ZArith Bool List Lia.
From Aegean Require Import Gen.Islands Gen.IslandBox Model.IslandModel Model.IslandBox Proofs.IslandProofs.
Import ListNotations.
Open Scope Z_scope.

(* the generated body: rows from axis 1 and offset 0, columns from axis 0 and offset 1, upper limits exclusive *)
Lemma calc_bounding_box_eq J r0 c0 : calc_bounding_box J r0 c0 =
  (r0 + first_index (map fst J), r0 + last_index (map fst J) + 1, c0 + first_index (map snd J), c0 + last_index (map snd J) + 1).
Proof. reflexivity. Qed.
Lemma set_mask_spec : set_mask_stores_argument = true. Proof. reflexivity. Qed.

(* first / last index of a coordinate pr over pixels shifted by rel: the shift k comes out of the fold of min / max *)
Lemma fold_rel (op : Z -> Z -> Z) (pr : pix -> Z) (k : Z) (rel : pix -> pix) p t :
  (forall a b, op (a - k) (b - k) = op a b - k) -> (forall q, pr (rel q) = pr q - k) ->
  fold_right op (pr (rel p)) (map pr (map rel t)) = fold_right op (pr p) (map pr t) - k.
Proof.
  intros Hop Hpr. rewrite Hpr. induction t as [|x t IH]; cbn [map fold_right]; [reflexivity|]. rewrite IH, Hpr. apply Hop.
Qed.
Lemma first_rows p t r0 c0 :
  first_index (map fst (rel_pixels (p :: t) r0 c0)) = fold_right Z.min (fst p) (map fst t) - r0.
Proof. apply (fold_rel Z.min fst r0); [intros; apply Z.sub_min_distr_r | reflexivity]. Qed.
Lemma last_rows p t r0 c0 :
  last_index (map fst (rel_pixels (p :: t) r0 c0)) = fold_right Z.max (fst p) (map fst t) - r0.
Proof. apply (fold_rel Z.max fst r0); [intros; apply Z.sub_max_distr_r | reflexivity]. Qed.
Lemma first_cols p t r0 c0 :
  first_index (map snd (rel_pixels (p :: t) r0 c0)) = fold_right Z.min (snd p) (map snd t) - c0.
Proof. apply (fold_rel Z.min snd c0); [intros; apply Z.sub_min_distr_r | reflexivity]. Qed.
Lemma last_cols p t r0 c0 :
  last_index (map snd (rel_pixels (p :: t) r0 c0)) = fold_right Z.max (snd p) (map snd t) - c0.
Proof. apply (fold_rel Z.max snd c0); [intros; apply Z.sub_max_distr_r | reflexivity]. Qed.

(* calc_bounding_box on the own pixels of ANY cut-out that starts at (r0, c0) is the tight box of the island:
   the offsets cancel, so the result does not depend on the cut-out at all *)
Lemma calc_box_any_cutout : forall (I : list pix) r0 c0, I <> [] ->
  calc_bounding_box (rel_pixels I r0 c0) r0 c0 = bbox I.
Proof.
  intros I r0 c0 Hne. destruct I as [|p t]; [congruence|].
  rewrite calc_bounding_box_eq, first_rows, last_rows, first_cols, last_cols. cbn [bbox].
  f_equal; [f_equal; [f_equal|]|]; ring.
Qed.

Lemma reported_box_is_bbox : forall (I : list pix), I <> [] -> reported_box I = bbox I.
Proof.
  intros I Hne. unfold reported_box. destruct (bbox I) as [[[r0 r1] c0] c1] eqn:Eb.
  rewrite <- Eb. apply calc_box_any_cutout. exact Hne.
Qed.

Lemma island_reports_tight_box : forall img fl sd I, In I (islands img fl sd) -> reported_box I = bbox I.
Proof.
  intros img fl sd I H. apply reported_box_is_bbox. apply islands_sound in H as (Hne & _). exact Hne.
Qed.
