(* Proofs for C02 (islands = seeded flood-thresholded 8-connected groups) and C11 (region filter).
   The leaves of Gen/Islands.v are unfolded only in their characterising lemmas at the head of the file and are opaque
   afterwards; the classes of the pixel graph are instances of Lib/Graph.v. *)
From Coq Require Import ZArith Bool List Lia Relations FinFun.
From Aegean Require Import Gen.Islands Lib.Graph Model.IslandModel.
Import ListNotations.
Open Scope Z_scope.

Lemma snr_num_spec i b : snr_num i b = Z.abs (i - b).
Proof. reflexivity. Qed.

Lemma flood_test_spec n d cn cd : flood_test n d cn cd = true <-> cn * d <= n * cd.
Proof. unfold flood_test. apply Z.leb_le. Qed.

Lemma seed_test_spec n d cn cd : seed_test n d cn cd = true <-> cn * d < n * cd.
Proof. unfold seed_test. apply Z.ltb_lt. Qed.

Lemma mask_below_flood_spec n d cn cd :
  mask_below_flood n d cn cd = negb (flood_test n d cn cd).
Proof.
  unfold mask_below_flood, flood_test.
  destruct (Z.ltb_spec (n * cd) (cn * d)), (Z.leb_spec (cn * d) (n * cd)); cbn [negb]; auto; lia.
Qed.

Lemma seed_scope_eq I : seed_scope I = I.
Proof. reflexivity. Qed.

Lemma conn_reach_spec : conn_reach = 1.
Proof. reflexivity. Qed.

Lemma region_first_spec r c r0 c0 : region_first r c r0 c0 + 1 - region_origin = c + c0 + 1.
Proof. unfold region_first, region_origin. lia. Qed.

Lemma region_second_spec r c r0 c0 : region_second r c r0 c0 + 1 - region_origin = r + r0 + 1.
Proof. unfold region_second, region_origin. lia. Qed.

Local Opaque snr_num flood_test seed_test mask_below_flood seed_scope_own conn_reach
      region_first region_second region_origin.

Lemma zseq_In lo n x : In x (zseq lo n) <-> lo <= x < lo + Z.of_nat n.
Proof.
  revert lo. induction n as [|n IH]; intros lo; cbn [zseq In].
  - lia.
  - rewrite IH. lia.
Qed.

Lemma zseq_NoDup lo n : NoDup (zseq lo n).
Proof.
  revert lo. induction n as [|n IH]; intros lo; cbn [zseq]; constructor; auto.
  rewrite zseq_In. lia.
Qed.

Definition rows_from (lo : Z) (img : image) : list pix :=
  flat_map (fun rr : Z * list pixel => map (fun c => (fst rr, c)) (zseq 0 (length (snd rr))))
           (combine (zseq lo (length img)) img).

Lemma all_pixels_rows img : all_pixels img = rows_from 0 img.
Proof. reflexivity. Qed.

Lemma rows_from_cons lo row img :
  rows_from lo (row :: img) = map (fun c => (lo, c)) (zseq 0 (length row)) ++ rows_from (lo + 1) img.
Proof. reflexivity. Qed.

Lemma rows_from_lo lo img p : In p (rows_from lo img) -> lo <= fst p.
Proof.
  revert lo. induction img as [|row img IH]; intros lo; [intros []|].
  rewrite rows_from_cons, in_app_iff, in_map_iff. intros [(c & <- & _)|H]; [cbn [fst]; lia | apply IH in H; lia].
Qed.

Lemma rows_from_intro lo img p row : lo <= fst p -> nth_error img (Z.to_nat (fst p - lo)) = Some row ->
  0 <= snd p < Z.of_nat (length row) -> In p (rows_from lo img).
Proof.
  revert lo. induction img as [|row' img IH]; intros lo Hlo Hn Hc.
  - destruct (Z.to_nat (fst p - lo)); discriminate.
  - rewrite rows_from_cons, in_app_iff. destruct (Z.eq_dec (fst p) lo) as [E|E].
    + left. rewrite E, Z.sub_diag in Hn. injection Hn as ->. apply in_map_iff. exists (snd p).
      split; [rewrite <- E; destruct p; reflexivity | apply zseq_In; lia].
    + right. replace (Z.to_nat (fst p - lo)) with (S (Z.to_nat (fst p - (lo + 1)))) in Hn by lia.
      apply IH; [lia | exact Hn | exact Hc].
Qed.

Lemma rows_from_NoDup lo img : NoDup (rows_from lo img).
Proof.
  revert lo. induction img as [|row img IH]; intros lo.
  - constructor.
  - rewrite rows_from_cons. apply NoDup_app_intro.
    + apply Injective_map_NoDup; [|apply zseq_NoDup]. intros a b H. congruence.
    + apply IH.
    + intros x Hx Hx'. apply in_map_iff in Hx as (c & <- & _). apply rows_from_lo in Hx'. cbn [fst] in Hx'. lia.
Qed.

Lemma all_pixels_NoDup img : NoDup (all_pixels img).
Proof. rewrite all_pixels_rows. apply rows_from_NoDup. Qed.

Lemma get_inv img p px : get img p = Some px -> exists row, 0 <= fst p /\ 0 <= snd p /\
  nth_error img (Z.to_nat (fst p)) = Some row /\ nth_error row (Z.to_nat (snd p)) = Some px.
Proof.
  unfold get. destruct ((fst p <? 0) || (snd p <? 0)) eqn:E; [discriminate|].
  apply orb_false_iff in E as (E1 & E2). apply Z.ltb_ge in E1, E2.
  destruct (nth_error img (Z.to_nat (fst p))) as [row|]; [|discriminate]. intros Hc. exists row. auto.
Qed.

Lemma get_in_all_pixels img p px : get img p = Some px -> In p (all_pixels img).
Proof.
  intros H. apply get_inv in H as (row & Hr & Hc & Er & Ec). rewrite all_pixels_rows.
  apply (rows_from_intro 0 img p row); [exact Hr | rewrite Z.sub_0_r; exact Er |].
  assert (Hlt : (Z.to_nat (snd p) < length row)%nat) by (apply nth_error_Some; congruence). lia.
Qed.

Lemma box_pixels_In r0 r1 c0 c1 p :
  In p (box_pixels (r0, r1, c0, c1)) <-> r0 <= fst p < r1 /\ c0 <= snd p < c1.
Proof.
  unfold box_pixels. rewrite in_flat_map. split.
  - intros (r & Hr & Hc). apply in_map_iff in Hc as (c & <- & Hc).
    apply zseq_In in Hr, Hc. cbn [fst snd]. lia.
  - intros H. exists (fst p). split; [apply zseq_In; lia|].
    apply in_map_iff. exists (snd p). split; [destruct p; reflexivity|apply zseq_In; lia].
Qed.

Definition rms_pos_b (img : image) : bool :=
  forallb (forallb (fun px => match p_rms px with Some r => 0 <? r | None => true end)) img.

Lemma rms_pos_check img : rms_pos_b img = true -> rms_pos img.
Proof.
  unfold rms_pos_b, rms_pos. intros H p px r Hg Hr. apply get_inv in Hg as (row & _ & _ & Er & Hg).
  apply nth_error_In in Er, Hg.
  rewrite forallb_forall in H. specialize (H row Er).
  rewrite forallb_forall in H. specialize (H px Hg).
  rewrite Hr in H. apply Z.ltb_lt, H.
Qed.

Lemma snr_rule (t : Z -> Z -> bool) (R : Z -> Z -> Prop) img p : (forall n d, t n d = true <-> R n d) ->
  (match snr img p with Some (n, d) => t n d | None => false end = true <->
   exists px i b r, get img p = Some px /\ p_im px = Some i /\ p_bkg px = Some b /\ p_rms px = Some r /\ R (Z.abs (i - b)) r).
Proof.
  intros Ht. unfold snr, snr_of. split.
  - destruct (get img p) as [px|]; [|discriminate].
    destruct (p_im px) as [i|] eqn:Ei, (p_bkg px) as [b|] eqn:Eb, (p_rms px) as [r|] eqn:Er; try discriminate.
    rewrite Ht, snr_num_spec. intros H. exists px, i, b, r. auto 6.
  - intros (px & i & b & r & -> & -> & -> & -> & H). apply Ht. rewrite snr_num_spec. exact H.
Qed.

Lemma flood_ok_iff img fl p : flood_ok img fl p = true <->
  exists px i b r, get img p = Some px /\ p_im px = Some i /\ p_bkg px = Some b /\ p_rms px = Some r /\
                   c_num fl * r <= Z.abs (i - b) * c_den fl.
Proof. apply (snr_rule _ (fun n d => c_num fl * d <= n * c_den fl)). intros n d. apply flood_test_spec. Qed.

Lemma seed_ok_iff img sd p : seed_ok img sd p = true <->
  exists px i b r, get img p = Some px /\ p_im px = Some i /\ p_bkg px = Some b /\ p_rms px = Some r /\
                   c_num sd * r < Z.abs (i - b) * c_den sd.
Proof. apply (snr_rule _ (fun n d => c_num sd * d < n * c_den sd)). intros n d. apply seed_test_spec. Qed.

Lemma flood_ok_finite img fl p : flood_ok img fl p = true ->
  exists px i b r, get img p = Some px /\ p_im px = Some i /\ p_bkg px = Some b /\ p_rms px = Some r.
Proof. intros H. apply flood_ok_iff in H as (px & i & b & r & Hg & Hi & Hb & Hr & _). exists px, i, b, r. auto. Qed.

Lemma flood_ok_in_nodes img fl p : flood_ok img fl p = true <-> In p (nodes img fl).
Proof.
  unfold nodes. rewrite filter_In. split; [|tauto].
  intros H. split; [|exact H]. destruct (flood_ok_finite img fl p H) as (px & _ & _ & _ & Hg & _).
  apply (get_in_all_pixels img p px Hg).
Qed.

Lemma seed_ok_mono img sd sd' p : rms_pos img -> clip_ok sd -> clip_ok sd' -> clip_le sd sd' ->
  seed_ok img sd' p = true -> seed_ok img sd p = true.
Proof.
  intros Hrms Hsd Hsd' Hle H. apply seed_ok_iff in H as (px & i & b & r & Hg & Hi & Hb & Hr & H).
  apply seed_ok_iff. exists px, i, b, r. repeat (split; [assumption|]).
  pose proof (Hrms p px r Hg Hr) as Hpos. unfold clip_ok, clip_le in *. clear - Hsd Hsd' Hle H Hpos. nia.
Qed.

Lemma pix_eqb_spec (p q : pix) : reflect (p = q) (pix_eqb p q).
Proof.
  destruct p as [a b], q as [c d]. unfold pix_eqb. cbn [fst snd].
  destruct (Z.eqb_spec a c), (Z.eqb_spec b d); cbn [andb]; constructor; congruence.
Qed.

Lemma pix_eqb_eq p q : pix_eqb p q = true <-> p = q.
Proof. destruct (pix_eqb_spec p q); split; congruence. Qed.

Lemma adj_sym p q : adj p q = true -> adj q p = true.
Proof. unfold adj. rewrite !andb_true_iff, !Z.leb_le. lia. Qed.

(* 8-neighbourhood (including the pixel itself) *)
Lemma adj_spec p q : adj p q = true <-> Z.abs (fst p - fst q) <= 1 /\ Z.abs (snd p - snd q) <= 1.
Proof. unfold adj. rewrite conn_reach_spec, andb_true_iff, !Z.leb_le. tauto. Qed.

Lemma nodes_NoDup img fl : NoDup (nodes img fl).
Proof. apply NoDup_filter, all_pixels_NoDup. Qed.

Lemma islands_In img fl sd I : In I (islands img fl sd) <->
  In I (groups img fl) /\ exists s, In s I /\ seed_ok img sd s = true.
Proof. unfold islands. rewrite filter_In, seed_scope_eq, existsb_exists. tauto. Qed.

Lemma islands_sound : forall img fl sd I, In I (islands img fl sd) ->
  I <> [] /\ NoDup I /\
  (forall p, In p I -> flood_ok img fl p = true) /\
  (forall p q, In p I -> (In q I <-> connected pix adj (nodes img fl) p q)) /\
  (exists s, In s I /\ seed_ok img sd s = true).
Proof.
  intros img fl sd I H. apply islands_In in H as (HG & Hs).
  destruct (components_partition pix pix_eqb pix_eqb_spec adj _ (nodes_NoDup img fl) adj_sym I HG) as (Hne & Hnd & Hincl & Hcl).
  split; [exact Hne|]. split; [exact Hnd|]. split; [|split; [exact Hcl | exact Hs]].
  intros p Hp. apply flood_ok_in_nodes, Hincl, Hp.
Qed.

Lemma islands_pairwise img fl sd : pairwise disjoint (islands img fl sd).
Proof.
  unfold islands. apply pairwise_filter, components_pairwise.
  - exact pix_eqb_spec.
  - exact (nodes_NoDup img fl).
  - exact adj_sym.
Qed.

(* a fold of a selecting operation (min, max) over a coordinate pr returns the coordinate of one of the elements,
   related by R to those of all of them *)
Lemma fold_sel_spec (op : Z -> Z -> Z) (R : Z -> Z -> Prop) (pr : Z * Z -> Z) :
  (forall a b, R (op a b) a /\ R (op a b) b) -> (forall a b, {op a b = a} + {op a b = b}) ->
  (forall a, R a a) -> (forall a b c, R a b -> R b c -> R a c) ->
  forall p t, (forall q, In q (p :: t) -> R (fold_right op (pr p) (map pr t)) (pr q)) /\
              exists q, In q (p :: t) /\ pr q = fold_right op (pr p) (map pr t).
Proof.
  intros Hle Hsel Hrefl Htrans p t. induction t as [|b t (IH1 & q0 & Hq0 & E0)]; cbn [map fold_right].
  - split; [intros q [<-|[]]; apply Hrefl | exists p; split; [left|]; reflexivity].
  - set (m := fold_right op (pr p) (map pr t)) in *. destruct (Hle (pr b) m) as (Hb & Hm). split.
    + intros q [<-|[<-|H]].
      * apply (Htrans _ _ _ Hm), IH1. left. reflexivity.
      * exact Hb.
      * apply (Htrans _ _ _ Hm), IH1. right. exact H.
    + destruct (Hsel (pr b) m) as [-> | ->]; [exists b; split; [right; left|]; reflexivity|].
      exists q0. split; [|exact E0]. destruct Hq0 as [<-|H]; [left; reflexivity | right; right; exact H].
Qed.
Lemma fold_min_spec (pr : Z * Z -> Z) p t : (forall q, In q (p :: t) -> fold_right Z.min (pr p) (map pr t) <= pr q) /\
  exists q, In q (p :: t) /\ pr q = fold_right Z.min (pr p) (map pr t).
Proof.
  exact (fold_sel_spec Z.min Z.le pr (fun a b => conj (Z.le_min_l a b) (Z.le_min_r a b)) Z.min_dec Z.le_refl Z.le_trans p t).
Qed.
Lemma fold_max_spec (pr : Z * Z -> Z) p t : (forall q, In q (p :: t) -> pr q <= fold_right Z.max (pr p) (map pr t)) /\
  exists q, In q (p :: t) /\ pr q = fold_right Z.max (pr p) (map pr t).
Proof.
  exact (fold_sel_spec Z.max (fun a b => b <= a) pr (fun a b => conj (Z.le_max_l a b) (Z.le_max_r a b)) Z.max_dec Z.le_refl
           (fun a b c H1 H2 => Z.le_trans c b a H2 H1) p t).
Qed.

Lemma bbox_tight : forall (I : list pix) r0 r1 c0 c1, I <> [] -> bbox I = (r0, r1, c0, c1) ->
  (forall p, In p I -> r0 <= fst p < r1 /\ c0 <= snd p < c1) /\
  (exists p, In p I /\ fst p = r0) /\ (exists p, In p I /\ fst p = r1 - 1) /\
  (exists p, In p I /\ snd p = c0) /\ (exists p, In p I /\ snd p = c1 - 1).
Proof.
  intros I r0 r1 c0 c1 Hne Hb. destruct I as [|p t]; [congruence|]. injection Hb as <- <- <- <-.
  destruct (fold_min_spec fst p t) as (Hr0 & Er0), (fold_max_spec fst p t) as (Hr1 & q1 & Hq1 & Er1).
  destruct (fold_min_spec snd p t) as (Hc0 & Ec0), (fold_max_spec snd p t) as (Hc1 & q3 & Hq3 & Ec1).
  split; [|split; [exact Er0 | split; [|split; [exact Ec0|]]]].
  - intros q Hq. specialize (Hr0 q Hq). specialize (Hr1 q Hq). specialize (Hc0 q Hq). specialize (Hc1 q Hq). lia.
  - exists q1. split; [exact Hq1 | lia].
  - exists q3. split; [exact Hq3 | lia].
Qed.

Lemma unmasked_In img fl I p : I <> [] -> (forall q, In q I -> flood_ok img fl q = true) ->
  (In p (unmasked img fl I) <-> In p I).
Proof.
  intros Hne Hfl. unfold unmasked. rewrite filter_In, negb_true_iff. unfold mask_at.
  rewrite orb_false_iff, negb_false_iff, existsb_exists. split.
  - intros (_ & _ & q & Hq & E). apply pix_eqb_eq in E. subst q. exact Hq.
  - intros Hp. split; [|split].
    + destruct (bbox I) as [[[r0 r1] c0] c1] eqn:Eb.
      apply box_pixels_In. apply (bbox_tight I r0 r1 c0 c1 Hne Eb). exact Hp.
    + specialize (Hfl p Hp). unfold flood_ok in Hfl. destruct (snr img p) as [[n d]|]; [|reflexivity].
      rewrite mask_below_flood_spec, Hfl. reflexivity.
    + exists p. split; [exact Hp|apply pix_eqb_eq; reflexivity].
Qed.

Lemma mask_exact : forall img fl sd I p, In I (islands img fl sd) -> (In p (unmasked img fl I) <-> In p I).
Proof.
  intros img fl sd I p H. apply islands_sound in H as (Hne & _ & Hfl & _).
  apply unmasked_In; assumption.
Qed.

Lemma no_blank : forall img fl sd I p, In I (islands img fl sd) -> In p I ->
  exists px i b r, get img p = Some px /\ p_im px = Some i /\ p_bkg px = Some b /\ p_rms px = Some r.
Proof.
  intros img fl sd I p H Hp. apply islands_sound in H as (_ & _ & Hfl & _).
  apply (flood_ok_finite img fl p), Hfl, Hp.
Qed.

Lemma all_pixels_neg img : all_pixels (neg_image img) = all_pixels img.
Proof.
  enough (H : forall lo, rows_from lo (neg_image img) = rows_from lo img) by apply H.
  unfold neg_image. induction img as [|row img IH]; intros lo; cbn [map]; [reflexivity|].
  rewrite !rows_from_cons, map_length, IH. reflexivity.
Qed.

Lemma get_neg img p : get (neg_image img) p = option_map neg_pixel (get img p).
Proof.
  unfold get, neg_image. destruct ((fst p <? 0) || (snd p <? 0)); [reflexivity|].
  rewrite nth_error_map. destruct (nth_error img (Z.to_nat (fst p))) as [row|]; cbn [option_map].
  - apply nth_error_map.
  - reflexivity.
Qed.

Lemma snr_of_neg px : snr_of (neg_pixel px) = snr_of px.
Proof.
  destruct px as [[i|] [b|] [r|]]; unfold snr_of, neg_pixel; cbn [p_im p_bkg p_rms option_map];
    try reflexivity.
  rewrite !snr_num_spec. replace (- i - - b) with (- (i - b)) by lia. rewrite Z.abs_opp. reflexivity.
Qed.

Lemma snr_neg img p : snr (neg_image img) p = snr img p.
Proof.
  unfold snr. rewrite get_neg. destruct (get img p) as [px|]; cbn [option_map];
    [apply snr_of_neg|reflexivity].
Qed.

Lemma flood_ok_neg img fl p : flood_ok (neg_image img) fl p = flood_ok img fl p.
Proof. unfold flood_ok. rewrite snr_neg. reflexivity. Qed.

Lemma seed_ok_neg img sd p : seed_ok (neg_image img) sd p = seed_ok img sd p.
Proof. unfold seed_ok. rewrite snr_neg. reflexivity. Qed.

Lemma nodes_neg img fl : nodes (neg_image img) fl = nodes img fl.
Proof. unfold nodes. rewrite all_pixels_neg. apply filter_ext. intros p. apply flood_ok_neg. Qed.

Lemma sign_symmetric : forall img fl sd, islands (neg_image img) fl sd = islands img fl sd.
Proof.
  intros img fl sd. unfold islands, groups. rewrite nodes_neg. apply filter_ext. intros I.
  apply existsb_ext. intros p. apply seed_ok_neg.
Qed.

Lemma region_ok_touches inside I :
  region_ok inside I = existsb (fun p => inside (snd p + 1) (fst p + 1)) I.
Proof.
  unfold region_ok. destruct (bbox I) as [[[r0 r1] c0] c1]. apply existsb_ext. intros p.
  rewrite region_first_spec, region_second_spec. f_equal; lia.
Qed.

Lemma region_filter : forall img fl sd inside,
  islands_region img fl sd inside =
  filter (fun I => existsb (fun p => inside (snd p + 1) (fst p + 1)) I) (islands img fl sd).
Proof.
  intros img fl sd inside. unfold islands_region. apply filter_ext. intros I.
  apply region_ok_touches.
Qed.

Lemma islands_region_In img fl sd inside I : In I (islands_region img fl sd inside) <->
  In I (islands img fl sd) /\ exists p, In p I /\ inside (snd p + 1) (fst p + 1) = true.
Proof. rewrite region_filter, filter_In, existsb_exists. reflexivity. Qed.

