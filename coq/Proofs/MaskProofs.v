(* C10 - lemmas about Model/Mask.v.  The generated leaves of Gen/Mask.v enter through the equation of the model function
   they serve (index_grid_spec, big_mask_spec, squeeze_lead, table_exact), where they are computed. *)
From Coq Require Import ZArith Bool List Lia.
From Aegean Require Import Lib.Lists Gen.Mask Model.Mask.
Import ListNotations.
Open Scope Z_scope.

Lemma zrange_length : forall n, length (zrange n) = Z.to_nat n.
Proof. intros; unfold zrange; rewrite map_length, seq_length; reflexivity. Qed.

Lemma zrange_nth : forall n k d, (k < Z.to_nat n)%nat -> nth k (zrange n) d = Z.of_nat k.
Proof.
  intros n k d Hk. unfold zrange.
  rewrite (nth_map_lt _ _ _ d 0%nat) by (rewrite seq_length; exact Hk).
  rewrite seq_nth by exact Hk. reflexivity.
Qed.

Lemma all_some_map_Some : forall (A : Type) (l : list A), all_some (map Some l) = Some l.
Proof. induction l as [|a l IH]; [reflexivity|]. cbn [map all_some]. rewrite IH. reflexivity. Qed.

Lemma if_map_negb : forall (b : bool) (A : Type) (g : A -> bool) l,
  (if b then map negb (map g l) else map g l) = map (fun x => xorb b (g x)) l.
Proof.
  intros [|] A g l; [rewrite map_map|]; apply map_ext; intros x; destruct (g x); reflexivity.
Qed.

Definition rowgrid (C i : Z) : list (Z * Z) := map (fun j => (j, i)) (zrange C).
(* row-major list of (column, row) pairs *)
Definition grid (R C : Z) : list (Z * Z) := flat_map (rowgrid C) (zrange R).

Lemma rowgrid_length : forall C i, length (rowgrid C i) = Z.to_nat C.
Proof. intros; unfold rowgrid; rewrite map_length; apply zrange_length. Qed.

Lemma set_row : forall C i idx, map fst idx = zrange C -> map (set_slot row_slot i) idx = rowgrid C i.
Proof.
  intros C i idx H. unfold rowgrid. rewrite <- H, map_map. apply map_ext. reflexivity.
Qed.

Lemma assign_slice_app {A} lo hi (done src old rest : list A) :
  lo = Z.of_nat (length done) -> hi = lo + Z.of_nat (length src) -> length old = length src ->
  assign_slice lo hi src (done ++ old ++ rest) = Some (done ++ src ++ rest).
Proof.
  intros -> -> Hlen. unfold assign_slice.
  (* the slice ends where old ends *)
  replace (Z.of_nat (length done) + Z.of_nat (length src)) with (Z.of_nat (length (done ++ old)))
    by (rewrite app_length; lia).
  (* it is in range and has the length of src *)
  replace ((0 <=? _) && _ && _ && _) with true.
  2:{ symmetry. rewrite !andb_true_iff, !Z.leb_le, Z.eqb_eq, !app_length. lia. }
  rewrite !Nat2Z.id. f_equal. f_equal.
  - (* the part before the slice is done *)
    rewrite firstn_app, firstn_all, Nat.sub_diag. cbn [firstn]. apply app_nil_r.
  - (* the part after it is rest *)
    f_equal. rewrite (app_assoc done), skipn_app, skipn_all, Nat.sub_diag. reflexivity.
Qed.

Lemma fill_spec : forall C, 0 <= C -> forall m k idx done,
  map fst idx = zrange C ->
  length done = (k * Z.to_nat C)%nat ->
  fill (map Z.of_nat (seq k m)) C idx (map Some done ++ repeat None (m * Z.to_nat C)) =
  Some (map Some (done ++ flat_map (rowgrid C) (map Z.of_nat (seq k m)))).
Proof.
  intros C HC. induction m as [|m IH]; intros k idx done Hidx Hlen.
  - cbn [seq map fill flat_map Nat.mul repeat]. rewrite !app_nil_r. reflexivity.
  - cbn [seq map fill flat_map Nat.mul]. rewrite (set_row C _ idx Hidx), repeat_app. unfold block_lo, block_hi.
    rewrite (assign_slice_app _ _ (map Some done));
      [| rewrite map_length; lia | rewrite !map_length, rowgrid_length; lia
       | rewrite repeat_length, map_length, rowgrid_length; reflexivity].
    rewrite app_assoc, <- map_app, (IH (S k) (rowgrid C (Z.of_nat k))).
    + rewrite <- app_assoc. reflexivity.
    + unfold rowgrid. rewrite map_map. apply map_id.
    + rewrite app_length, rowgrid_length, Hlen. lia.
Qed.

Lemma index_grid_spec : forall R C, 0 <= R -> 0 <= C -> index_grid R C = Some (grid R C).
Proof.
  intros R C HR HC.
  change (index_grid R C) with
    match fill (zrange R) C (map (fun j => (j, 0)) (zrange C)) (repeat None (Z.to_nat (R * C))) with
    | Some g => all_some g | None => None end.
  rewrite Z2Nat.inj_mul by assumption.
  rewrite (fill_spec C HC (Z.to_nat R) 0 _ []); [| rewrite map_map; apply map_id | reflexivity].
  cbn [app]. apply all_some_map_Some.
Qed.

Lemma grid_length : forall R C, 0 <= R -> 0 <= C -> length (grid R C) = Z.to_nat (R * C).
Proof.
  intros R C HR HC. unfold grid. apply Nat2Z.inj.
  rewrite (length_flat_map_const _ _ C) by (intros; rewrite rowgrid_length; lia).
  rewrite zrange_length, !Z2Nat.id by nia. reflexivity.
Qed.

Lemma grid_nth : forall R C r c d, 0 <= r < R -> 0 <= c < C ->
  nth (Z.to_nat (r * C + c)) (grid R C) d = (c, r).
Proof.
  intros R C r c d Hr Hc. unfold grid.
  rewrite Z2Nat.inj_add, Z2Nat.inj_mul by nia.
  rewrite (nth_flat_map_const _ (Z.to_nat C) 0) by
    (try (intros; apply rowgrid_length); rewrite ?zrange_length; lia).
  rewrite zrange_nth by lia. unfold rowgrid.
  rewrite (nth_map_lt _ _ _ d 0) by (rewrite zrange_length; lia).
  rewrite zrange_nth by lia. rewrite !Z2Nat.id by lia. reflexivity.
Qed.

Section PlaneProofs.
  Variable sky : Type.
  Variable pix2world : Z * Z -> Z -> sky.
  Variable within : sky -> bool.
  (* W1 p : sky position of the centre of FITS (1-based) pixel p = (x, y) *)
  Variable W1 : Z * Z -> sky.
  (* library hypothesis (astropy.wcs), validated by the harness on every run *)
  Hypothesis origin_conv : forall p o, pix2world p o = W1 (fst p + 1 - o, snd p + 1 - o).

  (* should array pixel (r, c) be blanked?  negate xor (centre not inside) *)
  Definition blank_rule (negate : bool) (r c : Z) : bool := xorb negate (negb (within (W1 (c + 1, r + 1)))).

  Definition the_mask (R C : Z) (negate : bool) : list bool :=
    map (fun p => blank_rule negate (snd p) (fst p)) (grid R C).

  Lemma big_mask_spec : forall R C negate, 0 <= R -> 0 <= C ->
    big_mask sky pix2world within R C negate = Some (the_mask R C negate).
  Proof.
    intros R C negate HR HC. unfold big_mask. rewrite (index_grid_spec R C HR HC).
    change (xorb plane_invert_unless_negate negate) with (negb negate). change pix_origin with 0.
    rewrite if_map_negb. f_equal. unfold the_mask.
    apply map_ext. intros [a b]. unfold blank_rule. rewrite origin_conv. cbn [fst snd].
    replace (a + 1 - 0) with (a + 1) by lia. replace (b + 1 - 0) with (b + 1) by lia.
    destruct negate, (within (W1 (a + 1, b + 1))); reflexivity.
  Qed.

  Lemma the_mask_length : forall R C negate, 0 <= R -> 0 <= C -> length (the_mask R C negate) = Z.to_nat (R * C).
  Proof. intros. unfold the_mask. rewrite map_length. apply grid_length; assumption. Qed.

  Lemma the_mask_nth : forall R C negate r c, 0 <= r < R -> 0 <= c < C ->
    nth (Z.to_nat (r * C + c)) (the_mask R C negate) true = blank_rule negate r c.
  Proof.
    intros R C negate r c Hr Hc. unfold the_mask.
    rewrite (nth_map_lt _ _ _ true (0, 0)) by (rewrite grid_length; nia).
    rewrite (grid_nth R C r c (0, 0) Hr Hc). reflexivity.
  Qed.

  Definition apply_mask (m : list bool) (data : list (option Z)) : list (option Z) :=
    map (fun mv => blank (fst mv) (snd mv)) (combine m data).

  Lemma mask_plane_spec : forall R C data negate, 0 <= R -> 0 <= C -> Z.of_nat (length data) = R * C ->
    mask_plane sky pix2world within R C data negate = Some (apply_mask (the_mask R C negate) data).
  Proof.
    intros R C data negate HR HC Hlen. unfold mask_plane. rewrite (big_mask_spec R C negate HR HC).
    rewrite the_mask_length, Z2Nat.id, Hlen, Z.eqb_refl by nia. reflexivity.
  Qed.

  Lemma apply_mask_length : forall m data, length m = length data -> length (apply_mask m data) = length data.
  Proof. intros m data H. unfold apply_mask. rewrite map_length, combine_length, H. apply Nat.min_id. Qed.

  Lemma apply_mask_nth : forall m data n, length m = length data ->
    nth n (apply_mask m data) None = blank (nth n m true) (nth n data None).
  Proof.
    intros m data n H. unfold apply_mask.
    change (@None Z) with ((fun mv : bool * option Z => blank (fst mv) (snd mv)) (true, None)) at 1.
    rewrite map_nth, combine_nth by exact H. reflexivity.
  Qed.

  Lemma plane_nth : forall R C data negate out r c, 0 <= R -> 0 <= C -> Z.of_nat (length data) = R * C ->
    mask_plane sky pix2world within R C data negate = Some out -> 0 <= r < R -> 0 <= c < C ->
    nth (Z.to_nat (r * C + c)) out None =
    if blank_rule negate r c then None else nth (Z.to_nat (r * C + c)) data None.
  Proof.
    intros R C data negate out r c HR HC Hlen Hout Hr Hc.
    rewrite mask_plane_spec in Hout by assumption. injection Hout as <-.
    rewrite apply_mask_nth, the_mask_nth by (assumption || rewrite the_mask_length; lia). reflexivity.
  Qed.

  Lemma plane_exact : forall R C data negate, 0 <= R -> 0 <= C -> Z.of_nat (length data) = R * C ->
    exists out, mask_plane sky pix2world within R C data negate = Some out /\
      length out = length data /\
      forall r c, 0 <= r < R -> 0 <= c < C ->
        nth (Z.to_nat (r * C + c)) out None =
        if blank_rule negate r c then None else nth (Z.to_nat (r * C + c)) data None.
  Proof.
    intros R C data negate HR HC Hlen. exists (apply_mask (the_mask R C negate) data).
    pose proof (mask_plane_spec R C data negate HR HC Hlen) as Hout.
    split; [exact Hout|]. split; [apply apply_mask_length; rewrite the_mask_length; lia|].
    intros r c. apply plane_nth; assumption.
  Qed.

  Lemma plane_blank_iff : forall R C data negate out r c, 0 <= R -> 0 <= C -> Z.of_nat (length data) = R * C ->
    mask_plane sky pix2world within R C data negate = Some out -> 0 <= r < R -> 0 <= c < C ->
    (nth (Z.to_nat (r * C + c)) out None = None <->
     nth (Z.to_nat (r * C + c)) data None = None \/ blank_rule negate r c = true) /\
    (blank_rule negate r c = false -> nth (Z.to_nat (r * C + c)) out None = nth (Z.to_nat (r * C + c)) data None).
  Proof.
    intros R C data negate out r c HR HC Hlen Hout Hr Hc.
    rewrite (plane_nth R C data negate out r c) by assumption.
    destruct (blank_rule negate r c); intuition congruence.
  Qed.

  (* on finite data the two polarities blank complementary pixel sets *)
  Lemma complementary : forall R C data o1 o2 r c, 0 <= R -> 0 <= C -> Z.of_nat (length data) = R * C ->
    mask_plane sky pix2world within R C data false = Some o1 ->
    mask_plane sky pix2world within R C data true = Some o2 ->
    0 <= r < R -> 0 <= c < C -> nth (Z.to_nat (r * C + c)) data None <> None ->
    (nth (Z.to_nat (r * C + c)) o1 None = None <-> nth (Z.to_nat (r * C + c)) o2 None <> None) /\
    (nth (Z.to_nat (r * C + c)) o1 None = None <-> within (W1 (c + 1, r + 1)) = false).
  Proof.
    intros R C data o1 o2 r c HR HC Hlen H1 H2 Hr Hc Hfin.
    rewrite (plane_nth R C data false o1 r c), (plane_nth R C data true o2 r c) by assumption.
    unfold blank_rule. destruct (within (W1 (c + 1, r + 1))); cbn [xorb negb]; intuition congruence.
  Qed.

  Lemma chunks_length : forall (A : Type) n k (l : list A), length l = (k * n)%nat ->
    Forall (fun pl => length pl = n) (chunks n k l).
  Proof.
    intros A n. induction k as [|k IH]; intros l H; [constructor|].
    cbn [chunks]. constructor.
    - rewrite firstn_length. lia.
    - apply IH. rewrite skipn_length. lia.
  Qed.

  Lemma all_some_map_ok : forall (A B : Type) (f : A -> option B) (g : A -> B) l,
    Forall (fun a => f a = Some (g a)) l -> all_some (map f l) = Some (map g l).
  Proof.
    intros A B f g l H. induction H as [|a l Ha _ IH]; [reflexivity|].
    cbn [map all_some]. rewrite Ha, IH. reflexivity.
  Qed.

  Lemma planes_ok : forall R C negate pls, 0 <= R -> 0 <= C ->
    Forall (fun pl => length pl = Z.to_nat (R * C)) pls ->
    all_some (map (fun pl => mask_plane sky pix2world within R C pl negate) pls) =
    Some (map (apply_mask (the_mask R C negate)) pls).
  Proof.
    intros R C negate pls HR HC H. apply all_some_map_ok.
    eapply Forall_impl; [|exact H]. intros pl Hl. cbv beta in Hl. apply mask_plane_spec; try assumption.
    nia.
  Qed.

  (* squeeze drops the leading axes of length 1; the two image axes always survive *)
  Lemma squeeze_lead : forall lead R C dims, dims = lead ++ [R; C] -> lead <> [] ->
    squeeze dims = filter (fun d => negb (d =? 1)) lead ++ [R; C].
  Proof.
    intros lead R C dims -> Hne. unfold squeeze. change squeeze_image_axes with false. rewrite app_length. cbn [length].
    replace (2 <? Z.of_nat (length lead + 2)) with true
      by (symmetry; apply Z.ltb_lt; destruct lead; [congruence | cbn [length]; lia]).
    rewrite Nat.add_sub, firstn_app, skipn_app, Nat.sub_diag, firstn_all, skipn_all. cbn [firstn skipn].
    rewrite app_nil_r. reflexivity.
  Qed.

  (* P >= 2 planes, any image shape (also a single row or column) *)
  Lemma cube_planes : forall P R C data negate, 2 <= P -> 0 <= R -> 0 <= C ->
    Z.of_nat (length data) = P * (R * C) ->
    mask_file_data sky pix2world within [P; R; C] data negate =
    Some ([P; R; C], concat (map (apply_mask (the_mask R C negate)) (chunks (Z.to_nat (R * C)) (Z.to_nat P) data))).
  Proof.
    intros P R C data negate HP HR HC Hlen. unfold mask_file_data. rewrite (squeeze_lead [P] R C [P; R; C]) by (reflexivity || discriminate).
    cbn [filter]. replace (P =? 1) with false by (symmetry; apply Z.eqb_neq; lia). cbn [negb app].
    rewrite planes_ok; try assumption; [reflexivity|].
    apply chunks_length. nia.
  Qed.

  (* a single plane given as a 3-D (1, R, C) array is squeezed to the 2-D image, and so are the degenerate leading axes of a
     4-D FITS array (STOKES / FREQ of length 1) *)
  Lemma degenerate_axes : forall P R C data negate,
    (mask_file_data sky pix2world within [1; R; C] data negate = mask_file_data sky pix2world within [R; C] data negate) /\
    (P <> 1 ->
     (mask_file_data sky pix2world within [1; P; R; C] data negate = mask_file_data sky pix2world within [P; R; C] data negate) /\
     (mask_file_data sky pix2world within [P; 1; R; C] data negate = mask_file_data sky pix2world within [P; R; C] data negate) /\
     (mask_file_data sky pix2world within [1; 1; R; C] data negate = mask_file_data sky pix2world within [R; C] data negate)).
  Proof.
    intros P R C data negate. unfold mask_file_data.
    rewrite (squeeze_lead [1] R C [1; R; C]), (squeeze_lead [1; P] R C [1; P; R; C]), (squeeze_lead [P; 1] R C [P; 1; R; C]),
      (squeeze_lead [1; 1] R C [1; 1; R; C]), (squeeze_lead [P] R C [P; R; C]) by (reflexivity || discriminate).
    split; [reflexivity|]. intros HP1.
    cbn [filter]. replace (P =? 1) with false by (symmetry; apply Z.eqb_neq; exact HP1).
    repeat split; reflexivity.
  Qed.

  Lemma image_2d : forall R C data negate, 0 <= R -> 0 <= C -> Z.of_nat (length data) = R * C ->
    mask_file_data sky pix2world within [R; C] data negate = Some ([R; C], apply_mask (the_mask R C negate) data).
  Proof.
    intros R C data negate HR HC Hlen. unfold mask_file_data.
    change (squeeze [R; C]) with [R; C]. cbv iota. rewrite mask_plane_spec by assumption. reflexivity.
  Qed.
End PlaneProofs.

Section TableProofs.
  Variable row : Type.
  Variable ra dec : row -> option Z.
  Variable within_c : Z -> Z -> bool.

  (* the property's notion: a row is inside iff both coordinates are defined and the position is in the region *)
  Definition inside_row (x : row) : bool :=
    match ra x, dec x with Some a, Some d => within_c a d | _, _ => false end.

  Lemma row_inside_spec : forall x, row_inside row ra dec within_c x = inside_row x.
  Proof.
    intros x. unfold row_inside, inside_row. destruct (ra x), (dec x); reflexivity.
  Qed.

  Lemma table_exact : forall rows negate,
    mask_table row ra dec within_c rows negate = filter (fun x => xorb negate (negb (inside_row x))) rows.
  Proof.
    intros rows negate. unfold mask_table. apply filter_ext. intros x. unfold row_kept.
    rewrite row_inside_spec. destruct negate, (inside_row x); reflexivity.
  Qed.

  Lemma table_nan_kept : forall rows x, In x rows -> ra x = None \/ dec x = None ->
    In x (mask_table row ra dec within_c rows false) /\ ~ In x (mask_table row ra dec within_c rows true).
  Proof.
    intros rows x Hin Hnan. rewrite !table_exact, !filter_In.
    assert (Hi : inside_row x = false) by (unfold inside_row; destruct Hnan as [-> | ->]; [|destruct (ra x)]; reflexivity).
    rewrite Hi. cbn [negb xorb]. split; [split; [exact Hin|reflexivity]|]. intros [_ H]. discriminate.
  Qed.

  Lemma table_member : forall rows negate x,
    In x (mask_table row ra dec within_c rows negate) <-> In x rows /\ inside_row x = negate.
  Proof.
    intros rows negate x. rewrite table_exact, filter_In.
    destruct negate, (inside_row x); cbn [xorb negb]; intuition congruence.
  Qed.

  (* order and multiplicity: the two polarities interleave back to the table *)
  Fixpoint merge_by (f : row -> bool) (rows kept dropped : list row) : Prop :=
    match rows with
    | [] => kept = [] /\ dropped = []
    | x :: t => if f x then match kept with k :: kt => k = x /\ merge_by f t kt dropped | [] => False end
                else match dropped with d :: dt => d = x /\ merge_by f t kept dt | [] => False end
    end.

  Lemma table_partition : forall rows,
    merge_by (fun x => negb (inside_row x)) rows
      (mask_table row ra dec within_c rows false) (mask_table row ra dec within_c rows true).
  Proof.
    intros rows. rewrite !table_exact. induction rows as [|x t IH]; [split; reflexivity|].
    cbn [filter merge_by xorb]. destruct (inside_row x); cbn [negb]; (split; [reflexivity|exact IH]).
  Qed.
End TableProofs.
