(* C04 (extension) - lemmas about the noise / covariance model (Model/NoiseModel.v over Gen/Noise.v). *)
From Coq Require Import Reals List Arith Lia Lra Psatz.
From Aegean Require Import Lib.RBase Gen.Gauss Gen.Noise Model.NoiseModel.
Import ListNotations.
Open Scope R_scope.

(* one characterising lemma per generated leaf of Gen/Noise.v; the leaves are opaque in the rest of this file *)
Lemma cm_entry_char x y cx cy sx sy th :
  cm_entry x y cx cy sx sy th =
  exp (((((x - cx) * cos (rad th) + (y - cy) * sin (rad th)) ^ 2) / (sx ^ 2)
        + (((x - cx) * sin (rad th) - (y - cy) * cos (rad th)) ^ 2) / (sy ^ 2)) * (IZR (-1) / 2)).
Proof. unfold cm_entry, gauss. cbv zeta. rewrite Rmult_1_l. reflexivity. Qed.

Definition bm_eps : R := IZR 4835703278458517 / IZR 4835703278458516698824704.   (* the binary64 value of 1e-9 *)
Lemma bm_minL_documented l : bm_minL l = bm_eps * l.
Proof. reflexivity. Qed.
Lemma bm_eps_pos : 0 < bm_eps.
Proof. unfold bm_eps. apply Rdiv_lt_0_compat; apply IZR_lt; reflexivity. Qed.
Lemma bm_minL_pos l : 0 < l -> 0 < bm_minL l.
Proof. intros H. rewrite bm_minL_documented. apply Rmult_lt_0_compat; [apply bm_eps_pos|exact H]. Qed.
Lemma bm_minL_last : bm_minL_uses_last = true.
Proof. reflexivity. Qed.
Lemma bm_clip_char l m : bm_clip l m = Rmax l m.
Proof. unfold bm_clip, Rltb, Rmax. destruct (Rlt_dec l m), (Rle_dec l m); try reflexivity; lra. Qed.
Lemma bm_s_sq l : 0 < l -> bm_s l * bm_s l = / l.
Proof.
  intros H. assert (Hs : 0 < sqrt l) by (apply sqrt_lt_R0; exact H).
  replace (/ l) with (/ (sqrt l * sqrt l)) by (rewrite sqrt_sqrt; [reflexivity|lra]).
  unfold bm_s. field. lra.
Qed.
Lemma bm_Q_dot_S : bm_B_is_Q_dot_S = true.
Proof. reflexivity. Qed.
Lemma lj_scale_char m e : lj_scale m e = m / e.
Proof. reflexivity. Qed.
Lemma lj_shape : lj_scale_first = true /\ lj_whiten_right = true /\ lj_transposed = true.
Proof. repeat split; reflexivity. Qed.
Lemma ce_sigma_char d : ce_sigma d = sqrt d.
Proof. reflexivity. Qed.
Lemma ce_shape : ce_Bbranch_passes_B = true /\ ce_Bbranch_passes_errs = true /\
                 ce_Cbranch_passes_B = false /\ ce_Cbranch_passes_errs = true.
Proof. repeat split; reflexivity. Qed.

Local Opaque cm_entry bm_minL bm_clip bm_s lj_scale ce_sigma bm_minL_uses_last bm_B_is_Q_dot_S lj_scale_first lj_whiten_right
  lj_transposed ce_Bbranch_passes_B ce_Cbranch_passes_B.

Lemma bsum_ext n f g : (forall k, (k < n)%nat -> f k = g k) -> bsum n f = bsum n g.
Proof.
  induction n as [|n IH]; intros H; cbn [bsum]; [reflexivity|].
  rewrite (H n) by lia. rewrite IH; [reflexivity|]. intros k Hk. apply H. lia.
Qed.
Lemma bsum_0 n : bsum n (fun _ => 0) = 0.
Proof. induction n as [|n IH]; cbn [bsum]; [reflexivity|]. rewrite IH. ring. Qed.
Lemma bsum_plus n f g : bsum n (fun k => f k + g k) = bsum n f + bsum n g.
Proof. induction n as [|n IH]; cbn [bsum]; [ring|]. rewrite IH. ring. Qed.
Lemma bsum_mul_l n f c : bsum n (fun k => c * f k) = c * bsum n f.
Proof. induction n as [|n IH]; cbn [bsum]; [ring|]. rewrite IH. ring. Qed.
Lemma bsum_mul_r n f c : bsum n (fun k => f k * c) = bsum n f * c.
Proof. induction n as [|n IH]; cbn [bsum]; [ring|]. rewrite IH. ring. Qed.
Lemma bsum_switch n m (a : nat -> nat -> R) :
  bsum n (fun i => bsum m (fun j => a i j)) = bsum m (fun j => bsum n (fun i => a i j)).
Proof.
  induction n as [|n IH].
  - cbn [bsum]. symmetry. apply bsum_0.
  - cbn [bsum]. rewrite IH. symmetry. apply (bsum_plus m (fun j => bsum n (fun i => a i j)) (fun j => a n j)).
Qed.
Lemma bsum_pick n j f : (j < n)%nat -> (forall k, (k < n)%nat -> k <> j -> f k = 0) -> bsum n f = f j.
Proof.
  induction n as [|n IH]; intros Hj H; [lia|]. cbn [bsum]. destruct (Nat.eq_dec j n) as [->|Hne].
  - rewrite (bsum_ext n f (fun _ => 0)), bsum_0 by (intros k Hk; apply H; lia). ring.
  - rewrite IH, (H n) by (lia || (intros; apply H; lia)). ring.
Qed.

Lemma mmul_assoc n m A B C i j : mmul m (mmul n A B) C i j = mmul n A (mmul m B C) i j.
Proof.
  unfold mmul.
  transitivity (bsum m (fun k => bsum n (fun l => A i l * B l k * C k j))).
  - apply bsum_ext. intros k _. symmetry. apply (bsum_mul_r n (fun l => A i l * B l k) (C k j)).
  - rewrite bsum_switch. apply bsum_ext. intros l _.
    rewrite <- (bsum_mul_l m (fun k => B l k * C k j) (A i l)). apply bsum_ext. intros k _. ring.
Qed.
Lemma mmul_ext n A A' B B' i j : (forall k, (k < n)%nat -> A i k = A' i k) -> (forall k, (k < n)%nat -> B k j = B' k j) ->
  mmul n A B i j = mmul n A' B' i j.
Proof. intros HA HB. unfold mmul. apply bsum_ext. intros k Hk. rewrite (HA k Hk), (HB k Hk). reflexivity. Qed.
Lemma mmul_eq_l {n r A A' B} : meq r n A A' -> forall i j, (i < r)%nat -> mmul n A B i j = mmul n A' B i j.
Proof. intros H i j Hi. apply mmul_ext; [intros k Hk; apply H; assumption | reflexivity]. Qed.
Lemma mmul_eq_r {n c A B B'} : meq n c B B' -> forall i j, (j < c)%nat -> mmul n A B i j = mmul n A B' i j.
Proof. intros H i j Hj. apply mmul_ext; [reflexivity | intros k Hk; apply H; assumption]. Qed.
Lemma mmul_diag_r n A d i j : (j < n)%nat -> mmul n A (mdiag d) i j = A i j * d j.
Proof.
  intros Hj. unfold mmul, mdiag. rewrite (bsum_pick n j), Nat.eqb_refl; [reflexivity | exact Hj |].
  intros k _ Hk. apply Nat.eqb_neq in Hk. rewrite Hk. ring.
Qed.
Lemma mmul_diag_l n A d i j : (i < n)%nat -> mmul n (mdiag d) A i j = d i * A i j.
Proof.
  intros Hi. unfold mmul, mdiag. rewrite (bsum_pick n i), Nat.eqb_refl; [reflexivity | exact Hi |].
  intros k _ Hk. apply not_eq_sym, Nat.eqb_neq in Hk. rewrite Hk. ring.
Qed.
Lemma mmul_I_r n A i j : (j < n)%nat -> mmul n A mI i j = A i j.
Proof. intros Hj. change mI with (mdiag (fun _ => 1)). rewrite mmul_diag_r by exact Hj. ring. Qed.
Lemma mmul_I_l n A i j : (i < n)%nat -> mmul n mI A i j = A i j.
Proof. intros Hi. change mI with (mdiag (fun _ => 1)). rewrite mmul_diag_l by exact Hi. ring. Qed.
Lemma mT_mmul n A B i j : mT (mmul n A B) i j = mmul n (mT B) (mT A) i j.
Proof. unfold mT, mmul. apply bsum_ext. intros k _. ring. Qed.

Lemma cmatrix_symmetric pts sx sy th i j : cmatrix pts sx sy th i j = cmatrix pts sx sy th j i.
Proof. unfold cmatrix. rewrite !cm_entry_char. f_equal. unfold Rdiv. ring. Qed.

Lemma cmatrix_unit_diagonal pts sx sy th i : cmatrix pts sx sy th i i = 1.
Proof. unfold cmatrix. rewrite cm_entry_char. rewrite <- exp_0. f_equal. unfold Rdiv. ring. Qed.

Lemma sq_over_sq a s : s <> 0 -> 0 <= a ^ 2 / s ^ 2.
Proof.
  intros Hs. assert (0 < s ^ 2) by (destruct (Rtotal_order s 0) as [|[|]]; [nra|contradiction|nra]).
  apply Rmult_le_pos; [apply pow2_ge_0|]. left. apply Rinv_0_lt_compat. assumption.
Qed.
Lemma exp_quad_le_1 p q : 0 <= p -> 0 <= q -> exp ((p + q) * (IZR (-1) / 2)) <= 1.
Proof.
  intros Hp Hq. rewrite <- exp_0. destruct (Req_dec (p + q) 0) as [->|Hne]; [right; f_equal; lra|].
  left. apply exp_increasing. lra.
Qed.
Lemma cmatrix_unit_interval pts sx sy th i j : sx <> 0 -> sy <> 0 -> 0 < cmatrix pts sx sy th i j <= 1.
Proof.
  intros Hx Hy. unfold cmatrix. rewrite cm_entry_char.
  split; [apply exp_pos | apply exp_quad_le_1; apply sq_over_sq; assumption].
Qed.

(* Bmatrix under the contract of scipy.linalg.eigh *)
Section Eigh.
  Variables (n : nat) (C Q : mat) (L : vec).
  Hypothesis eigh_decomposes : meq n n C (mmul n (mmul n Q (mdiag L)) (mT Q)).
  Hypothesis eigh_orth_cols : meq n n (mmul n (mT Q) Q) mI.
  Hypothesis eigh_orth_rows : meq n n (mmul n Q (mT Q)) mI.
  Hypothesis eigh_ascending : forall i j, (i <= j < n)%nat -> L i <= L j.

  Let minL := bm_minL (L (pred n)).
  Let cl := clipped n L.
  Let B := bmatrix n L Q.

  Lemma clipped_char k : cl k = Rmax (L k) minL.
  Proof. unfold cl, clipped, bm_ref, minL. rewrite bm_minL_last, bm_clip_char. reflexivity. Qed.
  Lemma clipped_pos k : 0 < L (pred n) -> 0 < cl k.
  Proof.
    intros H. rewrite clipped_char. apply Rlt_le_trans with minL; [apply bm_minL_pos; exact H|apply Rmax_r].
  Qed.
  Lemma clipped_inactive k : minL <= L k -> cl k = L k.
  Proof. intros H. rewrite clipped_char. apply Rmax_left. exact H. Qed.

  Lemma bmatrix_entry i j : (j < n)%nat -> B i j = Q i j * bm_s (cl j).
  Proof.
    intros Hj. unfold B, bmatrix. rewrite bm_Q_dot_S. cbv zeta iota.
    rewrite mmul_diag_r by exact Hj. reflexivity.
  Qed.

  (* (Q D1 Q^T) (Q D2 Q^T) = Q D1 (Q^T Q) D2 Q^T = Q (D1 D2) Q^T = Q Q^T *)
  Lemma sandwich d1 d2 : (forall k, (k < n)%nat -> d1 k * d2 k = 1) ->
    meq n n (mmul n (mmul n (mmul n Q (mdiag d1)) (mT Q)) (mmul n (mmul n Q (mdiag d2)) (mT Q))) mI.
  Proof.
    intros Hd i j Hi Hj.
    assert (E1 : meq n n (mmul n (mT Q) (mmul n Q (mdiag d2))) (mdiag d2)).
    { intros a b Ha Hb. rewrite <- mmul_assoc, (mmul_eq_l eigh_orth_cols) by exact Ha. apply mmul_I_l, Ha. }
    assert (E2 : meq n n (mmul n (mT Q) (mmul n (mmul n Q (mdiag d2)) (mT Q))) (mmul n (mdiag d2) (mT Q))).
    { intros a b Ha Hb. rewrite <- mmul_assoc. apply (mmul_eq_l E1), Ha. }
    assert (E3 : meq n n (mmul n (mdiag d1) (mmul n (mdiag d2) (mT Q))) (mT Q)).
    { intros a b Ha Hb. rewrite !mmul_diag_l, <- Rmult_assoc, (Hd a Ha) by exact Ha. ring. }
    rewrite mmul_assoc, (mmul_eq_r E2), mmul_assoc, (mmul_eq_r E3) by exact Hj. apply eigh_orth_rows; assumption.
  Qed.

  (* B B^T = Q diag(1 / clipped L) Q^T : the inverse of the matrix with the CLIPPED spectrum *)
  Lemma bbt_spectrum : 0 < L (pred n) -> forall i j,
    mmul n B (mT B) i j = mmul n (mmul n Q (mdiag (fun k => / cl k))) (mT Q) i j.
  Proof.
    intros Hpos i j. apply bsum_ext. intros k Hk. unfold mT.
    rewrite !bmatrix_entry, mmul_diag_r, <- (bm_s_sq (cl k)) by (exact Hk || apply clipped_pos, Hpos). ring.
  Qed.

  Lemma bbt_spectrum_meq : 0 < L (pred n) -> meq n n (mmul n B (mT B)) (mmul n (mmul n Q (mdiag (fun k => / cl k))) (mT Q)).
  Proof. intros Hpos i j _ _. apply bbt_spectrum, Hpos. Qed.

  Lemma bmatrix_clipped_inverse : 0 < L (pred n) ->
    meq n n (mmul n (mmul n B (mT B)) (mmul n (mmul n Q (mdiag cl)) (mT Q))) mI.
  Proof.
    intros Hpos i j Hi Hj. rewrite (mmul_eq_l (bbt_spectrum_meq Hpos)) by exact Hi.
    apply sandwich; try assumption. intros k _. apply Rinv_l, Rgt_not_eq, clipped_pos, Hpos.
  Qed.

  (* the documented contract B.dot(B') = inv(C): holds when no eigenvalue is below minL = 1e-9 * L[-1] *)
  Lemma bmatrix_contract : 0 < L (pred n) -> minL <= L 0%nat ->
    meq n n (mmul n (mmul n B (mT B)) C) mI.
  Proof.
    intros Hpos Hin i j Hi Hj.
    assert (E : meq n n C (mmul n (mmul n Q (mdiag cl)) (mT Q))).
    { intros a b Ha Hb. rewrite (eigh_decomposes a b Ha Hb). apply mmul_ext; [|reflexivity]. intros k Hk.
      rewrite !mmul_diag_r, clipped_inactive; [reflexivity | | exact Hk | exact Hk].
      apply Rle_trans with (1 := Hin), eigh_ascending. lia. }
    rewrite (mmul_eq_r E) by exact Hj. apply bmatrix_clipped_inverse; assumption.
  Qed.
End Eigh.

Section Fisher.
  Variables (n : nat) (J : mat) (e : vec).
  Let M : mat := fun k a => J k a / e a.

  Lemma lmfit_jac_entry B m k : lmfit_jac n J e B m k = mmul n M B k m.
  Proof.
    unfold lmfit_jac, whiten. destruct lj_shape as (-> & -> & ->). unfold mT, mmul, mscale.
    apply bsum_ext. intros a _. rewrite lj_scale_char. reflexivity.
  Qed.

  Lemma fisher_B_product B i j : fisher_B n J e B i j = mmul n (mmul n M (mmul n B (mT B))) (mT M) i j.
  Proof.
    unfold fisher_B. destruct ce_shape as (-> & _). cbv zeta.
    transitivity (mmul n (mmul n M B) (mT (mmul n M B)) i j).
    - apply mmul_ext; intros k _; apply lmfit_jac_entry.
    - rewrite !mmul_assoc. apply mmul_ext; [reflexivity|]. intros k _.
      rewrite mmul_assoc. apply mmul_ext; [reflexivity|]. intros l _. apply mT_mmul.
  Qed.

  Lemma fisher_ref_product Cinv i j : fisher_ref n J e Cinv i j = mmul n (mmul n M Cinv) (mT M) i j.
  Proof.
    unfold fisher_ref, mmul, mT, M. rewrite bsum_switch. apply bsum_ext. intros b _.
    apply (bsum_mul_r n (fun a => J i a / e a * Cinv a b) (J j b / e b)).
  Qed.

  Lemma fisher_C_ref B Cinv i j : fisher_C n J e B Cinv i j = fisher_ref n J e Cinv i j.
  Proof.
    rewrite fisher_ref_product. unfold fisher_C. destruct ce_shape as (_ & _ & -> & _).
    cbv zeta. apply mmul_ext; intros b Hb.
    - apply mmul_ext; intros a Ha; [|reflexivity]. unfold mT. rewrite lmfit_jac_entry, mmul_I_r by exact Ha. reflexivity.
    - rewrite lmfit_jac_entry, mmul_I_r by exact Hb. reflexivity.
  Qed.

  Section Inverse.
    Variables (C Cinv : mat).
    (* scipy.linalg.inv *)
    Hypothesis inv_right : meq n n (mmul n C Cinv) mI.

    (* X = X (C Cinv) = (X C) Cinv = Cinv *)
    Lemma left_inverse_is_inv X : meq n n (mmul n X C) mI -> meq n n X Cinv.
    Proof.
      intros HX a b Ha Hb. rewrite <- (mmul_I_r n X a b Hb), <- (mmul_eq_r inv_right) by exact Hb.
      rewrite <- mmul_assoc, (mmul_eq_l HX) by exact Ha. apply mmul_I_l, Ha.
    Qed.

    (* the Fisher matrix of the B branch is J C^-1 J^T (with the noise scaling) for ANY B with B B^T C = I *)
    Lemma fisher_is_JCinvJ B : meq n n (mmul n (mmul n B (mT B)) C) mI ->
      forall i j, fisher_B n J e B i j = fisher_ref n J e Cinv i j.
    Proof.
      intros HB i j. rewrite fisher_B_product, fisher_ref_product.
      apply mmul_ext; [|reflexivity]. intros b Hb. apply mmul_ext; [reflexivity|]. intros a Ha.
      apply (left_inverse_is_inv _ HB); assumption.
    Qed.

    Lemma branches_agree B : meq n n (mmul n (mmul n B (mT B)) C) mI ->
      forall i j, fisher_B n J e B i j = fisher_C n J e B Cinv i j.
    Proof. intros HB i j. rewrite fisher_C_ref. apply fisher_is_JCinvJ. exact HB. Qed.

    (* J Sigma^-1 J^T with the covariance Sigma = diag(e) C diag(e) of the pixel noise *)
    Hypothesis inv_left : meq n n (mmul n Cinv C) mI.
    Hypothesis noise_nonzero : forall a, (a < n)%nat -> e a <> 0.

    Lemma precision_is_inverse : meq n n (mmul n (precision Cinv e) (covariance C e)) mI.
    Proof.
      intros i j Hi Hj. unfold mmul, precision, covariance.
      rewrite (bsum_ext n _ (fun m => (Cinv i m * C m j) * (e j / e i))).
      - rewrite bsum_mul_r. fold (mmul n Cinv C i j). rewrite (inv_left i j Hi Hj). unfold mI.
        destruct (Nat.eqb_spec i j) as [->|]; [field; apply noise_nonzero; exact Hj|ring].
      - intros m Hm. field. split; apply noise_nonzero; assumption.
    Qed.

    Lemma fisher_ref_precision i j :
      fisher_ref n J e Cinv i j = bsum n (fun a => bsum n (fun b => J i a * precision Cinv e a b * J j b)).
    Proof.
      unfold fisher_ref, precision. apply bsum_ext. intros a Ha. apply bsum_ext. intros b Hb.
      field. split; apply noise_nonzero; assumption.
    Qed.
  End Inverse.
End Fisher.

(* the side on which B is applied matters *)
Definition ws_B : mat := fun i j => match i, j with 0%nat, 0%nat => 1 | 0%nat, 1%nat => 1 | 1%nat, 1%nat => 1 | _, _ => 0 end.
Definition ws_C : mat := fun i j => match i, j with 0%nat, 0%nat => 1 | 0%nat, 1%nat => -1 | 1%nat, 0%nat => -1 | 1%nat, 1%nat => 2 | _, _ => 0 end.
Definition ws_Cinv : mat := fun i j => match i, j with 0%nat, 0%nat => 2 | 0%nat, 1%nat => 1 | 1%nat, 0%nat => 1 | 1%nat, 1%nat => 1 | _, _ => 0 end.
Definition ws_J : mat := fun i a => match a with 0%nat => 1 | _ => 0 end.
Lemma wrong_side_differs :
  meq 2 2 (mmul 2 (mmul 2 ws_B (mT ws_B)) ws_C) mI /\ meq 2 2 (mmul 2 ws_C ws_Cinv) mI /\
  fisher_B 2 ws_J (fun _ => 1) ws_B 0%nat 0%nat = fisher_ref 2 ws_J (fun _ => 1) ws_Cinv 0%nat 0%nat /\
  fisher_left 2 ws_J (fun _ => 1) ws_B 0%nat 0%nat <> fisher_ref 2 ws_J (fun _ => 1) ws_Cinv 0%nat 0%nat.
Proof.
  assert (H1 : meq 2 2 (mmul 2 (mmul 2 ws_B (mT ws_B)) ws_C) mI).
  { intros i j Hi Hj. destruct i as [|[|i]], j as [|[|j]]; try lia; unfold mmul, mT, ws_B, ws_C, mI; cbn; ring. }
  assert (H2 : meq 2 2 (mmul 2 ws_C ws_Cinv) mI).
  { intros i j Hi Hj. destruct i as [|[|i]], j as [|[|j]]; try lia; unfold mmul, ws_Cinv, ws_C, mI; cbn; ring. }
  split; [exact H1|]. split; [exact H2|]. split.
  - apply (fisher_is_JCinvJ 2 ws_J (fun _ => 1) ws_C ws_Cinv H2 ws_B H1).
  - unfold fisher_left, fisher_ref, mscale, mmul, mT, ws_J, ws_B, ws_Cinv. cbn [bsum]. rewrite ?(lj_scale_char 0 1), ?(lj_scale_char 1 1). apply Rlt_not_eq. lra.
Qed.

(* used by the per-case certified correspondence (tools/harness/c04x.py) *)
Lemma bmatrix_entry_val n L Q i j : (j < n)%nat -> bmatrix n L Q i j = bm_val (Q i j) (L j) (L (pred n)).
Proof. intros Hj. rewrite bmatrix_entry by exact Hj. unfold bm_val, clipped, bm_ref. rewrite bm_minL_last. reflexivity. Qed.
Lemma bm_val_inactive q l lref : bm_minL lref <= l -> bm_val q l lref = q * (1 / sqrt l).
Proof. intros H. unfold bm_val. rewrite bm_clip_char, Rmax_left by exact H. reflexivity. Qed.
Lemma bm_val_active q l lref : l < bm_minL lref -> bm_val q l lref = q * (1 / sqrt (bm_minL lref)).
Proof. intros H. unfold bm_val. rewrite bm_clip_char, Rmax_right by lra. reflexivity. Qed.
