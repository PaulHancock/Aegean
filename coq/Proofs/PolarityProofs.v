(* C13 - proofs about Model/Polarity.v.

   Section Mirror is generic in the leaves record L: it uses only the mirror properties of the leaves listed
   as its hypotheses.  After it each of those properties is proved for the generated leaves (one named lemma per
   leaf, so that a changed leaf breaks exactly that lemma).  Then the polarity filter and the curvature map. *)
From Coq Require Import ZArith QArith Qabs Qminmax Bool List Lia Lqa.
From Aegean Require Import Lib.QBase Lib.Ext Lib.Graph Gen.Polarity Model.IslandModel Model.Polarity.
Import ListNotations.

Lemma Qopp_opp_eq : forall q : Q, (- - q)%Q = q.
Proof. intros [n d]. unfold Qopp. cbn [Qnum Qden]. rewrite Z.opp_involutive. reflexivity. Qed.

Lemma qmaxl_In : forall l, l <> [] -> In (qmaxl l) l.
Proof.
  intros [|a t] Hne; [contradiction|]. clear Hne. cbn [qmaxl]. revert a.
  induction t as [|x t IH]; intros a; cbn [fold_left]; [left; reflexivity|].
  destruct (IH (Qmax a x)) as [E|Hin]; [|right; right; exact Hin]. rewrite <- E.
  unfold Qmax, GenericMinMax.gmax. destruct (a ?= x)%Q; [left | right; left | left]; reflexivity.
Qed.

Lemma pick_In : forall m l b, In (pick m b l) (b :: l).
Proof.
  intros m. induction l as [|p l IH]; intros b; cbn [pick]; [left; reflexivity|].
  match goal with |- In (pick m ?x l) _ => destruct (IH x) as [E|Hin] end.
  - rewrite <- E. destruct (if m then _ else _); [right; left|left]; reflexivity.
  - right. right. exact Hin.
Qed.

Lemma pick_mirror : forall m l b, pick (negb m) (neg_ipx b) (map neg_ipx l) = neg_ipx (pick m b l).
Proof.
  intros m. induction l as [|a l IH]; intros b; cbn [pick map]; [reflexivity|].
  rewrite <- IH. f_equal.
  destruct m; cbn [negb neg_ipx ip_val]; rewrite Qltb_opp; destruct (Qltb _ _); reflexivity.
Qed.

Section Mirror.
  Variable L : leaves.
  Hypothesis H_isneg : forall mx, l_isneg_test L mx = true <-> (mx < 0)%Q.
  Hypothesis H_mask_np : forall c v r oc, l_summit_pixel_neg L (- c) (- v) r oc = l_summit_pixel_pos L c v r oc.
  Hypothesis H_key : forall v, l_sort_key_pixel L (- v) = l_sort_key_pixel L v.
  Hypothesis H_amp_pick : l_amp_neg_uses_min L = negb (l_amp_pos_uses_min L).
  Hypothesis H_peak_pick : l_peak_neg_uses_argmin L = negb (l_peak_pos_uses_argmin L).
  Hypothesis H_snr : forall v r, l_snr_pixel L (- v) r = l_snr_pixel L v r.
  Hypothesis H_pos : forall a, l_amp_is_positive L a = true <-> (0 < a)%Q.
  Hypothesis H_lo : forall a r ic oc, (l_amp_min_pos L a r ic oc == - l_amp_max_neg L (- a) r ic oc)%Q.
  Hypothesis H_hi : forall a r ic oc, (l_amp_max_pos L a r ic oc == - l_amp_min_neg L (- a) r ic oc)%Q.

  Lemma amp_pos_false : forall a, (a < 0)%Q -> l_amp_is_positive L a = false.
  Proof.
    intros a Ha. destruct (l_amp_is_positive L a) eqn:E; [|reflexivity].
    apply H_pos in E. lra.
  Qed.

  Lemma amp_bounds_mirror : forall a r ic oc, ~ (a == 0)%Q ->
    (fst (amp_bounds L (- a) r ic oc) == - snd (amp_bounds L a r ic oc))%Q /\
    (snd (amp_bounds L (- a) r ic oc) == - fst (amp_bounds L a r ic oc))%Q.
  Proof.
    assert (Hpos : forall a r ic oc, (0 < a)%Q ->
              (fst (amp_bounds L (- a) r ic oc) == - snd (amp_bounds L a r ic oc))%Q /\
              (snd (amp_bounds L (- a) r ic oc) == - fst (amp_bounds L a r ic oc))%Q).
    { intros a r ic oc Hp. unfold amp_bounds. rewrite (proj2 (H_pos a) Hp), (amp_pos_false (- a)) by lra. cbn [fst snd].
      pose proof (H_lo a r ic oc). pose proof (H_hi a r ic oc). split; lra. }
    intros a r ic oc Hnz. destruct (Qlt_le_dec 0 a) as [Hp|Hn]; [apply Hpos, Hp|].
    assert (Hlt : (a < 0)%Q) by (destruct (Qlt_le_dec a 0) as [H|H]; [exact H | exfalso; apply Hnz; lra]).
    destruct (Hpos (- a)%Q r ic oc) as [B1 B2]; [lra|]. rewrite Qopp_opp_eq in B1, B2. split; lra.
  Qed.

  (* the sign of the largest pixel decides: it is one of the pixels *)
  Lemma isnegative_sign : forall isl (b : bool), isl <> [] ->
    (forall p, In p isl -> if b then (ip_val p < 0)%Q else (0 < ip_val p)%Q) -> isnegative L isl = b.
  Proof.
    intros isl b Hne Hs. unfold isnegative.
    assert (Hin : In (qmaxl (map ip_val isl)) (map ip_val isl)) by (apply qmaxl_In; destruct isl; [contradiction | discriminate]).
    apply in_map_iff in Hin as (p & <- & Hp). specialize (Hs p Hp).
    destruct (l_isneg_test L (ip_val p)) eqn:E, b; try reflexivity;
      [apply H_isneg in E | apply not_true_iff_false in E; rewrite H_isneg in E]; lra.
  Qed.

  Lemma isnegative_mirror : forall isl, isl <> [] -> single_signed isl ->
    isnegative L (neg_island isl) = negb (isnegative L isl).
  Proof.
    intros isl Hne Hs.
    assert (Hb : exists b : bool, forall p, In p isl -> if b then (ip_val p < 0)%Q else (0 < ip_val p)%Q)
      by (destruct Hs as [Hp|Hn]; [exists false; exact Hp | exists true; exact Hn]).
    destruct Hb as (b & Hb). rewrite (isnegative_sign isl b Hne Hb).
    apply isnegative_sign; [destruct isl; [contradiction | discriminate]|].
    intros p Hp. apply in_map_iff in Hp as (p0 & <- & Hp0). specialize (Hb p0 Hp0). cbn [neg_ipx ip_val]. destruct b; cbn [negb]; lra.
  Qed.

  Lemma summit_pixel_mirror : forall b oc p, summit_pixel L (negb b) oc (neg_ipx p) = summit_pixel L b oc p.
  Proof.
    intros b oc p. destruct b; cbn [negb]; unfold summit_pixel; cbn [neg_ipx ip_curve ip_val ip_rms]; [|apply H_mask_np].
    rewrite <- H_mask_np, !Qopp_opp_eq. reflexivity.
  Qed.

  Lemma positions_neg : forall isl, positions (neg_island isl) = positions isl.
  Proof. intros isl. unfold positions, neg_island. rewrite map_map. apply map_ext. reflexivity. Qed.

  Lemma positions_filter_mirror : forall b oc isl,
    positions (filter (summit_pixel L (negb b) oc) (neg_island isl)) = positions (filter (summit_pixel L b oc) isl).
  Proof.
    intros b oc isl. unfold neg_island. rewrite filter_map_comm.
    rewrite (filter_ext _ _ (summit_pixel_mirror b oc)). fold (neg_island (filter (summit_pixel L b oc) isl)).
    apply positions_neg.
  Qed.

  Lemma flag0_neg : forall isl, flag0 L (neg_island isl) = flag0 L isl.
  Proof. intros isl. unfold flag0, neg_island. rewrite map_length. reflexivity. Qed.
  Lemma is_tiny_neg : forall shape isl, is_tiny L shape (neg_island isl) = is_tiny L shape isl.
  Proof. intros. unfold is_tiny. rewrite flag0_neg. reflexivity. Qed.
  Lemma isl_flag_neg : forall shape isl, isl_flag L shape (neg_island isl) = isl_flag L shape isl.
  Proof. intros. unfold isl_flag. rewrite is_tiny_neg, flag0_neg. reflexivity. Qed.

  Lemma summits_mirror : forall segs b oc shape isl,
    summits L segs (negb b) oc shape (neg_island isl) = summits L segs b oc shape isl.
  Proof.
    intros. unfold summits. rewrite is_tiny_neg, positions_neg, positions_filter_mirror. reflexivity.
  Qed.

  Lemma pix_of_neg : forall sm isl, pix_of sm (neg_island isl) = neg_island (pix_of sm isl).
  Proof. intros sm isl. unfold pix_of, neg_island. rewrite filter_map_comm. reflexivity. Qed.

  Lemma key_neg : forall isl sm, key L (neg_island isl) sm = key L isl sm.
  Proof.
    intros isl sm. unfold key. rewrite pix_of_neg. unfold neg_island. rewrite map_map. f_equal.
    apply map_ext. intros p. cbn [neg_ipx ip_val]. apply H_key.
  Qed.

  Lemma in_box_neg : forall box isl, in_box L box (neg_island isl) = neg_island (in_box L box isl).
  Proof.
    intros [[[r0 r1] c0] c1] isl. unfold in_box, neg_island. rewrite filter_map_comm. reflexivity.
  Qed.

  Lemma box_snr_neg : forall box isl, box_snr L box (neg_island isl) = box_snr L box isl.
  Proof.
    intros box isl. unfold box_snr. rewrite in_box_neg. unfold neg_island. rewrite map_map. f_equal.
    apply map_ext. intros p. cbn [neg_ipx ip_val ip_rms]. apply H_snr.
  Qed.

  Lemma if_negb_swap : forall b p n : bool, n = negb p -> (if negb b then n else p) = negb (if b then n else p).
  Proof. intros b p n ->. destruct b, p; reflexivity. Qed.

  Lemma emit_nil : forall b psf ic oc ms flag l i, emit L b psf ic oc ms flag [] l i = [].
  Proof. intros b psf ic oc ms flag. induction l as [|[sm box] t IH]; intros i; cbn [emit pix_of filter]; auto. Qed.

  Lemma emit_mirror : forall b psf ic oc ms flag isl, (forall p, In p isl -> ~ (ip_val p == 0)%Q) ->
    forall l i, Forall2 mirror_of (emit L b psf ic oc ms flag isl l i)
                                  (emit L (negb b) psf ic oc ms flag (neg_island isl) l i).
  Proof.
    intros b psf ic oc ms flag isl Hnz. induction l as [|[sm box] t IH]; intros i; cbn [emit]; [constructor|].
    rewrite pix_of_neg, box_snr_neg.
    destruct (pix_of sm isl) as [|p0 pt] eqn:E; cbn [neg_island map]; [apply IH|].
    rewrite (if_negb_swap b _ _ H_amp_pick), (if_negb_swap b _ _ H_peak_pick), !pick_mirror. cbn [neg_ipx ip_pos ip_val ip_rms].
    set (pa := pick (if b then l_amp_neg_uses_min L else l_amp_pos_uses_min L) p0 pt).
    set (pk := pick (if b then l_peak_neg_uses_argmin L else l_peak_pos_uses_argmin L) p0 pt).
    destruct (l_snr_skip L (box_snr L box isl) ic); [apply IH|].
    destruct (psf (ip_pos pk)); cbn [negb]; [|apply IH].
    constructor; [|apply IH].
    assert (Ha : ~ (ip_val pa == 0)%Q).
    { apply Hnz. assert (Hin : In pa (pix_of sm isl)) by (rewrite E; apply pick_In).
      unfold pix_of in Hin. apply filter_In in Hin. apply Hin. }
    destruct (amp_bounds_mirror (ip_val pa) (ip_rms pk) ic oc Ha) as [B1 B2].
    unfold mirror_of. cbn [c_amp c_min c_max c_pos c_index c_flag c_vary c_psf_vary].
    repeat split; try reflexivity; assumption.
  Qed.

  Theorem estimate_mirror : forall segs psf ic oc ms shape isl, single_signed isl ->
    Forall2 mirror_of (estimate L segs psf ic oc ms shape isl)
                      (estimate L segs psf ic oc ms shape (neg_island isl)).
  Proof.
    intros segs psf ic oc ms shape isl Hs. unfold estimate.
    destruct isl as [|q isl'] eqn:Eisl.
    - cbn [neg_island map]. rewrite !emit_nil. constructor.
    - rewrite <- Eisl in *. assert (Hne : isl <> []) by (rewrite Eisl; discriminate).
      rewrite (isnegative_mirror isl Hne Hs), summits_mirror, isl_flag_neg.
      erewrite (map_ext (fun s : summit => (key L (neg_island isl) (fst s), s))) by (intros s; rewrite key_neg; reflexivity).
      apply emit_mirror.
      intros p Hin. destruct Hs as [Hp|Hn]; [specialize (Hp p Hin)|specialize (Hn p Hin)]; lra.
  Qed.
End Mirror.

Lemma isneg_test_spec : forall mx, isneg_test mx = true <-> (mx < 0)%Q.
Proof. intros mx. apply Qltb_lt. Qed.

Lemma summit_pixel_neg_of_mirror : forall c v r oc, summit_pixel_neg (- c) (- v) r oc = summit_pixel_pos c v r oc.
Proof.
  intros c v r oc. apply eq_true_iff_eq. unfold summit_pixel_neg, summit_pixel_pos.
  rewrite !andb_true_iff, !Qltb_lt. split; intros [H1 H2]; split; lra.
Qed.

Lemma sort_key_pixel_even : forall v, sort_key_pixel (- v) = sort_key_pixel v.
Proof. intros v. unfold sort_key_pixel. rewrite Qabs_opp_eq. reflexivity. Qed.

Lemma amp_pick_opposite : amp_neg_uses_min = negb amp_pos_uses_min.
Proof. reflexivity. Qed.
Lemma peak_pick_opposite : peak_neg_uses_argmin = negb peak_pos_uses_argmin.
Proof. reflexivity. Qed.

Lemma snr_pixel_even : forall v r, snr_pixel (- v) r = snr_pixel v r.
Proof.
  intros [n d] r. unfold snr_pixel, Qdiv, Qmult, Qopp, Qabs. cbn [Qnum Qden].
  rewrite Z.mul_opp_l, Z.abs_opp. reflexivity.
Qed.

Lemma amp_is_positive_spec : forall a, amp_is_positive a = true <-> (0 < a)%Q.
Proof. intros a. apply Qltb_lt. Qed.

Lemma amp_lower_mirror : forall a r ic oc, (amp_min_pos a r ic oc == - amp_max_neg (- a) r ic oc)%Q.
Proof.
  intros a r ic oc. unfold amp_min_pos, amp_max_neg.
  destruct (Qmin_cases (oc * r) a) as [[H1 E1]|[H1 E1]];
    destruct (Qmax_cases (- oc * r) (- a)) as [[H2 E2]|[H2 E2]]; rewrite E1, E2; lra.
Qed.

Lemma amp_upper_mirror : forall a r ic oc, (amp_max_pos a r ic oc == - amp_min_neg (- a) r ic oc)%Q.
Proof. intros a r ic oc. unfold amp_max_pos, amp_min_neg. lra. Qed.

Lemma peak_gt0_spec : forall q, peak_gt0 q = true <-> (0 < q)%Q.
Proof. intros q. apply Qltb_lt. Qed.
Lemma peak_lt0_spec : forall q, peak_lt0 q = true <-> (q < 0)%Q.
Proof. intros q. apply Qltb_lt. Qed.
Local Opaque peak_gt0 peak_lt0.

Lemma kept_cases : forall p,
  (is_pos p /\ forall np nn, kept np nn p = negb np) \/ (is_neg p /\ forall np nn, kept np nn p = negb nn) \/
  (~ finite_nonzero p /\ forall np nn, kept np nn p = true).
Proof.
  intros [q|]; unfold kept, filter_drop; cbn [peak_tests fst snd].
  2:{ right; right. split; [intros (q & E & _); discriminate | reflexivity]. }
  pose proof (peak_gt0_spec q) as Hg. pose proof (peak_lt0_spec q) as Hl. destruct (peak_gt0 q), (peak_lt0 q); cbn [andb orb].
  - exfalso. pose proof (proj1 Hg eq_refl). pose proof (proj1 Hl eq_refl). lra.
  - left. split; [exists q; split; [reflexivity | apply Hg; reflexivity] | intros np nn; destruct np; reflexivity].
  - right; left. split; [exists q; split; [reflexivity | apply Hl; reflexivity] | reflexivity].
  - right; right. split; [|reflexivity]. intros (q' & E & Hq). injection E as <-. apply Hq.
    assert (Hn1 : ~ (0 < q)%Q) by (intros H; apply Hg in H; discriminate).
    assert (Hn2 : ~ (q < 0)%Q) by (intros H; apply Hl in H; discriminate). lra.
Qed.

Lemma interleave_filter {A} (f g : A -> bool) (l : list A) :
  (forall x, In x l -> f x = negb (g x)) -> interleave (filter f l) (filter g l) l.
Proof.
  induction l as [|x l IH]; intros H; cbn [filter]; [constructor|].
  rewrite (H x (or_introl eq_refl)). assert (IH' := IH (fun y Hy => H y (or_intror Hy))).
  destruct (g x); cbn [negb]; constructor; exact IH'.
Qed.

Section FilterFacts.
  Variable row : Type.
  Variable peak : row -> option Q.
  Let cat := catalogue row peak.

  Lemma both_is_everything : forall l, cat false false l = l.
  Proof.
    intros l. unfold cat, catalogue. apply filter_true. intros s _.
    destruct (kept_cases (peak s)) as [(_ & K)|[(_ & K)|(_ & K)]]; apply K.
  Qed.

  Lemma filter_partition : forall l, (forall s, In s l -> finite_nonzero (peak s)) ->
    cat false false l = l /\
    interleave (cat false true l) (cat true false l) l /\
    (forall s, In s (cat false true l) -> is_pos (peak s)) /\
    (forall s, In s (cat true false l) -> is_neg (peak s)) /\
    (forall s, ~ (In s (cat false true l) /\ In s (cat true false l))) /\
    cat true true l = [].
  Proof.
    intros l Hl.
    assert (Hk : forall s, In s l -> (is_pos (peak s) /\ forall np nn, kept np nn (peak s) = negb np) \/
                                     (is_neg (peak s) /\ forall np nn, kept np nn (peak s) = negb nn)).
    { intros s Hs. destruct (kept_cases (peak s)) as [H|[H|(H & _)]]; [left; exact H | right; exact H | contradiction (H (Hl s Hs))]. }
    split; [apply both_is_everything|]. unfold cat, catalogue. split; [|split; [|split; [|split]]].
    - apply interleave_filter. intros s Hs. destruct (Hk s Hs) as [(_ & K)|(_ & K)]; rewrite !K; reflexivity.
    - intros s Hin. apply filter_In in Hin as (Hin & K0).
      destruct (Hk s Hin) as [(P & _)|(_ & K)]; [exact P | rewrite K in K0; discriminate].
    - intros s Hin. apply filter_In in Hin as (Hin & K0).
      destruct (Hk s Hin) as [(_ & K)|(N & _)]; [rewrite K in K0; discriminate | exact N].
    - intros s (H1 & H2). apply filter_In in H1 as (Hin & K1). apply filter_In in H2 as (_ & K2).
      destruct (Hk s Hin) as [(_ & K)|(_ & K)]; rewrite K in *; discriminate.
    - destruct (filter _ l) as [|s t] eqn:E; [reflexivity|].
      assert (Hin : In s (filter (fun s => kept true true (peak s)) l)) by (rewrite E; left; reflexivity).
      apply filter_In in Hin as (Hin & K0). destruct (Hk s Hin) as [(_ & K)|(_ & K)]; rewrite K in K0; discriminate.
  Qed.

  (* a row whose peak is zero or NaN is dropped by no setting: it is in the positive-only AND in the
     negative-only catalogue *)
  Lemma zero_nan_survives : forall l s np nn, In s l ->
    (peak s = None \/ exists q, peak s = Some q /\ (q == 0)%Q) -> In s (cat np nn l).
  Proof.
    intros l s np nn Hin Hz. unfold cat, catalogue. apply filter_In. split; [exact Hin|].
    destruct (kept_cases (peak s)) as [((q & E & H) & _)|[((q & E & H) & _)|(_ & K)]]; [| |apply K];
      exfalso; destruct Hz as [E0|(q0 & E0 & H0)]; rewrite E0 in E; try discriminate; injection E as <-; lra.
  Qed.
End FilterFacts.

(* the test "the pixel is the extreme of its window" on the negated window is the opposite test on the window itself,
   when the rank filters f, g are exchanged by negation and the fills a, b are mirror images *)
Lemma rank_test_neg (f g : list ev -> ev) (a b : fill) : (forall v, f (map neg_ev v) = neg_ev (g v)) -> a = neg_fill b ->
  forall w c, ev_eqb (f (map (apply_fill a) (map neg_ev w))) (apply_fill a (neg_ev c)) =
              ev_eqb (g (map (apply_fill b) w)) (apply_fill b c).
Proof.
  intros Hf -> w c. rewrite map_map, (map_ext _ _ (apply_fill_neg b)), <- (map_map (apply_fill b) neg_ev), Hf, apply_fill_neg.
  apply ev_eqb_neg.
Qed.

Section Curvature.
  (* the rank filters of scipy on one window: exchanging them under negation is a library hypothesis,
     validated by the harness on every run (windows with NaN and +-inf included) *)
  Variable maxf minf : list ev -> ev.
  Hypothesis H_max_neg : forall v, maxf (map neg_ev v) = neg_ev (minf v).
  Hypothesis H_min_neg : forall v, minf (map neg_ev v) = neg_ev (maxf v).
  Variable pf tf : fill.
  Variable pv tv : Z.
  Variable tlast : bool.
  Hypothesis H_fill : tf = neg_fill pf.
  Hypothesis H_val : tv = (- pv)%Z.

  Lemma curve_at_mirror : forall w c, plateau_at pf tf maxf minf w c = false ->
    curve_at pf tf pv tv tlast maxf minf (map neg_ev w) (neg_ev c) = (- curve_at pf tf pv tv tlast maxf minf w c)%Z.
  Proof.
    intros w c Hpl. unfold curve_at, plateau_at in *.
    assert (H_fill' : pf = neg_fill tf) by (rewrite H_fill, neg_fill_invol; reflexivity).
    rewrite (rank_test_neg maxf minf pf tf H_max_neg H_fill'), (rank_test_neg minf maxf tf pf H_min_neg H_fill).
    destruct (ev_eqb (maxf (map (apply_fill pf) w)) (apply_fill pf c)),
             (ev_eqb (minf (map (apply_fill tf) w)) (apply_fill tf c)), tlast;
      cbn [andb] in Hpl; try discriminate Hpl; lia.
  Qed.
End Curvature.

Lemma curv_fills_mirror : curv_trough_fill = neg_fill curv_peak_fill.
Proof. reflexivity. Qed.
Lemma curv_values_mirror : curv_trough_value = (- curv_peak_value)%Z.
Proof. reflexivity. Qed.

