(* C05 - one characterising lemma per generated leaf of Gen/Priorized.v.  PriorizedProofs.v makes the
   leaves opaque and uses only these lemmas, so a changed leaf breaks exactly one named lemma here.
   Where the generated x and y leaves have the same body the y lemma is the x lemma. *)
From Coq Require Import ZArith QArith Qround Lia Lqa Bool List.
From Aegean Require Import Lib.QPy Gen.Priorized.
Open Scope Q_scope.

Lemma fits_to_array_x_spec : forall p, fits_to_array_x p == p - 1.
Proof. intro p. unfold fits_to_array_x. ring. Qed.
Lemma fits_to_array_y_spec : forall p, fits_to_array_y p == p - 1.
Proof. exact fits_to_array_x_spec. Qed.
Lemma array_to_fits_x_spec : forall xo yo xmin xmax ymin ymax, array_to_fits_x xo yo xmin xmax ymin ymax == xo + xmin + 1.
Proof. intros. unfold array_to_fits_x. ring. Qed.
Lemma array_to_fits_y_spec : forall xo yo xmin xmax ymin ymax, array_to_fits_y xo yo xmin xmax ymin ymax == yo + ymin + 1.
Proof. intros. unfold array_to_fits_y. ring. Qed.

Lemma nearest_x_spec : forall p, nearest_x p = inject_Z (round_half_even p).
Proof. reflexivity. Qed.
Lemma nearest_y_spec : forall p, nearest_y p = inject_Z (round_half_even p).
Proof. reflexivity. Qed.

(* positions the WCS cannot project (NaN) are skipped before int(round()) (false before /repo 850a279) *)
Lemma skips_unprojectable_spec : skips_unprojectable = true.
Proof. reflexivity. Qed.

Lemma rejected_spec : forall x y r c df rf bk,
  rejected (inject_Z x) (inject_Z y) (inject_Z r) (inject_Z c) df rf bk =
  negb ((0 <=? x)%Z && (x <? r)%Z && ((0 <=? y)%Z && (y <? c)%Z) && df && rf && bk).
Proof.
  intros. unfold rejected. change (0 # 1) with (inject_Z 0). rewrite !Qleb_Z, !Qltb_Z.
  rewrite !negb_andb. reflexivity.
Qed.

Lemma cut_xwidth_int : forall sx sy, cut_xwidth sx sy = inject_Z (Qfloor (cut_xwidth sx sy)).
Proof.
  intros. unfold cut_xwidth. change (1 # 1) with (inject_Z 1). rewrite <- inject_Z_plus, Qfloor_Z. reflexivity.
Qed.
Lemma cut_ywidth_int : forall sx sy, cut_ywidth sx sy = inject_Z (Qfloor (cut_ywidth sx sy)).
Proof. exact cut_xwidth_int. Qed.

Lemma round_nonneg : forall q, 0 <= q -> (0 <= round_half_even q)%Z.
Proof.
  intros q Hq. pose proof (round_half_even_near q) as [_ Hhi].
  destruct (Z_lt_le_dec (round_half_even q) 0) as [Hneg|Hok]; [|assumption].
  exfalso. assert (Hle : (round_half_even q <= -1)%Z) by lia.
  rewrite Zle_Qle in Hle. change (inject_Z (-1)) with (-1 # 1) in Hle. lra.
Qed.

Lemma cut_xwidth_pos : forall sx sy, 0 <= sx -> (1 <= Qfloor (cut_xwidth sx sy))%Z.
Proof.
  intros sx sy H. unfold cut_xwidth. change (1 # 1) with (inject_Z 1). rewrite <- inject_Z_plus, Qfloor_Z.
  assert (0 <= (4 # 1) * sx) by lra. pose proof (round_nonneg _ H0). lia.
Qed.
Lemma cut_ywidth_pos : forall sx sy, 0 <= sx -> (1 <= Qfloor (cut_ywidth sx sy))%Z.
Proof. exact cut_xwidth_pos. Qed.

(* running bounds on integers: Python's min / max / // on ints *)
Lemma xmin_init_spec : forall r c, xmin_init (inject_Z r) (inject_Z c) = inject_Z r.
Proof. reflexivity. Qed.
Lemma ymin_init_spec : forall r c, ymin_init (inject_Z r) (inject_Z c) = inject_Z c.
Proof. reflexivity. Qed.
Lemma xmax_init_spec : forall r c, xmax_init (inject_Z r) (inject_Z c) = inject_Z 0.
Proof. reflexivity. Qed.
Lemma ymax_init_spec : forall r c, ymax_init (inject_Z r) (inject_Z c) = inject_Z 0.
Proof. reflexivity. Qed.

Lemma xmin_upd_spec : forall a x w r,
  xmin_upd (inject_Z a) (inject_Z x) (inject_Z w) (inject_Z r) = inject_Z (Z.min a (Z.max 0 (x - w / 2))).
Proof.
  intros. unfold xmin_upd. change (0 # 1) with (inject_Z 0).
  rewrite floordiv2_Z, <- inject_Z_sub, qmax_Z, qmin_Z. reflexivity.
Qed.
Lemma ymin_upd_spec : forall a x w r,
  ymin_upd (inject_Z a) (inject_Z x) (inject_Z w) (inject_Z r) = inject_Z (Z.min a (Z.max 0 (x - w / 2))).
Proof. exact xmin_upd_spec. Qed.
Lemma xmax_upd_spec : forall a x w r,
  xmax_upd (inject_Z a) (inject_Z x) (inject_Z w) (inject_Z r) = inject_Z (Z.max a (Z.min r (x + w / 2 + 1))).
Proof.
  intros. unfold xmax_upd. change (1 # 1) with (inject_Z 1).
  rewrite floordiv2_Z, <- !inject_Z_plus, qmin_Z, qmax_Z. reflexivity.
Qed.
Lemma ymax_upd_spec : forall a x w r,
  ymax_upd (inject_Z a) (inject_Z x) (inject_Z w) (inject_Z r) = inject_Z (Z.max a (Z.min r (x + w / 2 + 1))).
Proof. exact xmax_upd_spec. Qed.

Lemma slice_spec : forall a b c d,
  slice_x_lo (inject_Z a) (inject_Z b) (inject_Z c) (inject_Z d) = inject_Z a /\
  slice_x_hi (inject_Z a) (inject_Z b) (inject_Z c) (inject_Z d) = inject_Z b /\
  slice_y_lo (inject_Z a) (inject_Z b) (inject_Z c) (inject_Z d) = inject_Z c /\
  slice_y_hi (inject_Z a) (inject_Z b) (inject_Z c) (inject_Z d) = inject_Z d.
Proof.
  intros. unfold slice_x_lo, slice_x_hi, slice_y_lo, slice_y_hi. rewrite !Qtrunc_Z. repeat split; reflexivity.
Qed.
Lemma shift_x_spec : forall a b c d, shift_x a b c d = a.
Proof. reflexivity. Qed.
Lemma shift_y_spec : forall a b c d, shift_y a b c d = c.
Proof. reflexivity. Qed.

(* limits of sx, sy: the catalogue shape is always inside them, so lmfit never moves it when the
   parameter is added (false for the leaf before 318103b: Refuted/C05_shape_clipped.v) *)
Lemma shape_limits_spec : forall sx sy beam_a beam_b k, 0 <= sx -> 0 <= sy ->
  shape_lower sx sy beam_a beam_b k <= sx /\ sx <= shape_upper sx sy beam_a beam_b k /\
  shape_lower sx sy beam_a beam_b k <= sy /\ sy <= shape_upper sx sy beam_a beam_b k.
Proof.
  intros sx sy beam_a beam_b k Hx Hy. unfold shape_lower, shape_upper.
  set (m := qmin (qmin sx sy) (beam_b * k)). set (M := qmax sy sx).
  assert (H1 : m <= sx) by (eapply Qle_trans; [apply qmin_le_l|apply qmin_le_l]).
  assert (H2 : m <= sy) by (eapply Qle_trans; [apply qmin_le_l|apply qmin_le_r]).
  assert (H3 : sx <= M) by apply qmax_ge_r.
  assert (H4 : sy <= M) by apply qmax_ge_l.
  repeat split; lra.
Qed.

Lemma vary_amp_spec : forall st, vary_amp st = true.
Proof. reflexivity. Qed.
Lemma vary_xo_spec : forall st, vary_xo st = (2 <=? st)%Z.
Proof. reflexivity. Qed.
Lemma vary_yo_spec : forall st, vary_yo st = (2 <=? st)%Z.
Proof. reflexivity. Qed.
Lemma vary_sx_spec : forall st, vary_sx st = (3 <=? st)%Z.
Proof. reflexivity. Qed.
Lemma vary_sy_spec : forall st, vary_sy st = (3 <=? st)%Z.
Proof. reflexivity. Qed.
Lemma vary_theta_spec : forall st, vary_theta st = (3 <=? st)%Z.
Proof. reflexivity. Qed.
Lemma copy_pos_err_spec : forall st, copy_pos_err st = (st <? 2)%Z.
Proof. reflexivity. Qed.
Lemma copy_shape_err_spec : forall st, copy_shape_err st = (st <? 3)%Z.
Proof. reflexivity. Qed.
(* The translator (tools/points_c05.py) prints copied_err in one of two shapes: `e` where _refit_islands copies the
   input uncertainty as it is (/repo before f7c2d89), `if Qltb 0 e then e else -1` where it copies through
   _known_error (since).  A known uncertainty is kept by both, and the proof goes through whichever was printed. *)
Lemma copied_err_keeps : forall e, 0 < e \/ e = -(1 # 1) -> copied_err e = e.
Proof.
  intros e H. unfold copied_err.
  first
    [ (* plain copy *)
      reflexivity
    | (* through _known_error: 0 < e passes the test, -1 fails it and is what is returned *)
      destruct H as [H | ->];
      [ apply Qltb_iff in H; rewrite H; reflexivity
      | reflexivity ] ].
Qed.

Lemma flag_PRIORIZED_spec : flag_PRIORIZED = 64%Z.
Proof. reflexivity. Qed.
Lemma flag_FIXED2PSF_spec : flag_FIXED2PSF = 4%Z.
Proof. reflexivity. Qed.

Lemma to_cc_spec : forall s k, to_cc s k == s * k.
Proof. intros. unfold to_cc. ring. Qed.
Lemma from_cc_spec : forall s k, from_cc s k == s * k.
Proof. intros. unfold from_cc. ring. Qed.
Lemma arcsec_deg_roundtrip : forall a a', a' == to_deg a -> to_arcsec a' == a.
Proof. intros a a' H. unfold to_arcsec. rewrite H. unfold to_deg. field. Qed.
Lemma to_arcsec_comp : forall a a', a == a' -> to_arcsec a == to_arcsec a'.
Proof. intros a a' H. unfold to_arcsec. rewrite H. reflexivity. Qed.
