(* C05 - lemmas about Model/Priorized.v.  The generated definitions are opaque here: only their leaf
   lemmas of PriorizedLeaves.v are used. *)
From Coq Require Import ZArith QArith Qround Lia Lqa Bool List.
From Aegean Require Import Lib.Lists Lib.QPy Gen.Priorized Model.Priorized Proofs.PriorizedLeaves.
Import ListNotations.
Open Scope Q_scope.

Local Opaque fits_to_array_x fits_to_array_y nearest_x nearest_y rejected to_deg to_cc cut_xwidth cut_ywidth
  xmin_init ymin_init xmax_init ymax_init xmin_upd xmax_upd ymin_upd ymax_upd
  slice_x_lo slice_x_hi slice_y_lo slice_y_hi shift_x shift_y xo_lower xo_upper yo_lower yo_upper
  shape_lower shape_upper vary_amp vary_xo vary_yo vary_sx vary_sy vary_theta copy_pos_err copy_shape_err copied_err
  flag_PRIORIZED flag_FIXED2PSF flag_NOTFIT array_to_fits_x array_to_fits_y from_cc to_arcsec.

(* Order-preserving sub-sequences, in which the properties about uuids are stated, and the indexed map imap of
   Model/Priorized.v *)
Inductive subseq {A : Type} : list A -> list A -> Prop :=
| sub_nil : forall l, subseq [] l
| sub_skip : forall x l1 l2, subseq l1 l2 -> subseq l1 (x :: l2)
| sub_take : forall x l1 l2, subseq l1 l2 -> subseq (x :: l1) (x :: l2).

Lemma subseq_refl : forall (A : Type) (l : list A), subseq l l.
Proof. induction l; constructor; assumption. Qed.

Lemma subseq_app : forall (A : Type) (a1 a2 b1 b2 : list A), subseq a1 a2 -> subseq b1 b2 -> subseq (a1 ++ b1) (a2 ++ b2).
Proof.
  intros A a1 a2 b1 b2 Ha Hb. induction Ha as [l|x l1 l2 H IH|x l1 l2 H IH]; cbn [app].
  - induction l as [|y l IH]; cbn [app]; [assumption|constructor; assumption].
  - constructor; assumption.
  - constructor; assumption.
Qed.

Lemma subseq_In : forall (A : Type) (l1 l2 : list A) x, subseq l1 l2 -> In x l1 -> In x l2.
Proof.
  intros A l1 l2 x H. induction H as [l|y l1 l2 H IH|y l1 l2 H IH]; intro Hin.
  - destruct Hin.
  - right. apply IH. assumption.
  - destruct Hin as [->|Hin]; [left; reflexivity|right; apply IH; assumption].
Qed.

Lemma subseq_NoDup : forall (A : Type) (l1 l2 : list A), subseq l1 l2 -> NoDup l2 -> NoDup l1.
Proof.
  intros A l1 l2 H. induction H as [l|y l1 l2 H IH|y l1 l2 H IH]; intro Hnd.
  - constructor.
  - inversion Hnd; subst. apply IH. assumption.
  - inversion Hnd as [|? ? Hnotin Hnd']; subst. constructor.
    + intro Hin. apply Hnotin. eapply subseq_In; eassumption.
    + apply IH. assumption.
Qed.

Lemma subseq_map : forall (A B : Type) (f : A -> B) l1 l2, subseq l1 l2 -> subseq (map f l1) (map f l2).
Proof. intros A B f l1 l2 H. induction H; cbn [map]; constructor; assumption. Qed.

Lemma subseq_filter : forall (A : Type) (f : A -> bool) l, subseq (filter f l) l.
Proof.
  intros A f l. induction l as [|x l IH]; cbn [filter]; [constructor|].
  destruct (f x); constructor; assumption.
Qed.

Lemma subseq_combine_snd : forall (A B : Type) (l1 : list A) (l2 : list B), subseq (map snd (combine l1 l2)) l2.
Proof.
  intros A B l1. induction l1 as [|a l1 IH]; intros l2; cbn [combine map]; [constructor|].
  destruct l2 as [|b l2]; cbn [map snd]; [constructor|]. apply sub_take. apply IH.
Qed.

Lemma subseq_trans : forall (A : Type) (l1 l2 l3 : list A), subseq l1 l2 -> subseq l2 l3 -> subseq l1 l3.
Proof.
  intros A l1 l2 l3 H12 H23. revert l1 H12.
  induction H23 as [l|y l2 l3 H IH|y l2 l3 H IH]; intros l1 H12.
  - inversion H12; subst. apply sub_nil.
  - apply sub_skip. apply IH. assumption.
  - inversion H12; subst.
    + apply sub_nil.
    + apply sub_skip. apply IH. assumption.
    + apply sub_take. apply IH. assumption.
Qed.

Lemma imap_map_ext : forall (A B C : Type) (f : Z -> A -> B) (g : B -> C) (h : A -> C) l k,
  (forall j a, g (f j a) = h a) -> map g (imap f k l) = map h l.
Proof.
  intros A B C f g h l. induction l as [|a l IH]; intros k H; cbn [imap map]; [reflexivity|].
  rewrite H, IH by assumption. reflexivity.
Qed.

Lemma imap_In : forall (A B : Type) (f : Z -> A -> B) l k y,
  In y (imap f k l) -> exists n a, nth_error l n = Some a /\ y = f (k + Z.of_nat n)%Z a.
Proof.
  intros A B f l. induction l as [|a l IH]; intros k y Hin; cbn [imap] in Hin; [destruct Hin|].
  destruct Hin as [<-|Hin].
  - exists 0%nat, a. split; [reflexivity|]. f_equal. cbn. lia.
  - destruct (IH _ _ Hin) as (n & a' & Hn & ->). exists (S n), a'. split; [exact Hn|]. f_equal. lia.
Qed.

Lemma imap_app : forall (A B : Type) (f : Z -> A -> B) l1 l2 k,
  imap f k (l1 ++ l2) = imap f k l1 ++ imap f (k + Z.of_nat (length l1))%Z l2.
Proof.
  intros A B f l1. induction l1 as [|a l1 IH]; intros l2 k; cbn [app imap length].
  - f_equal. cbn. lia.
  - rewrite IH. cbn [app]. do 3 f_equal. lia.
Qed.

Lemma Forall2_length : forall (A B : Type) (R : A -> B -> Prop) l1 l2, Forall2 R l1 l2 -> length l1 = length l2.
Proof. intros A B. exact (@Lists.Forall2_length A B). Qed.

(* The cut-out on integers: a half-open interval of rows and one of columns. *)
Definition zx (p : placed) : Z := Qfloor (p_x p).
Definition zy (p : placed) : Z := Qfloor (p_y p).
Definition zxw (p : placed) : Z := Qfloor (cut_xwidth (p_sx p) (p_sy p)).
Definition zyw (p : placed) : Z := Qfloor (cut_ywidth (p_sx p) (p_sy p)).
Definition wf_placed (p : placed) : Prop := p_x p = inject_Z (zx p) /\ p_y p = inject_Z (zy p).

Definition iv : Type := (Z * Z)%type.
Definition in_iv (i : iv) (t : Z) : Prop := (fst i <= t < snd i)%Z.
Definition iv_ok (R : Z) (i : iv) : Prop := (0 <= fst i /\ snd i <= R)%Z.
Definition iv_add (R : Z) (i : iv) (x w : Z) : iv :=
  (Z.min (fst i) (Z.max 0 (x - w / 2)), Z.max (snd i) (Z.min R (x + w / 2 + 1)))%Z.

Lemma iv_add_mono : forall R i x w t, in_iv i t -> in_iv (iv_add R i x w) t.
Proof. unfold in_iv, iv_add. cbn [fst snd]. lia. Qed.

Lemma iv_add_contains : forall R i x w, (0 <= x < R)%Z -> (0 <= w)%Z -> in_iv (iv_add R i x w) x.
Proof. unfold in_iv, iv_add. cbn [fst snd]. intros R i x w Hx Hw. pose proof (Z.div_pos w 2). lia. Qed.

Lemma iv_add_ok : forall R i x w, iv_ok R i -> iv_ok R (iv_add R i x w).
Proof. unfold iv_ok, iv_add. cbn [fst snd]. lia. Qed.

Definition zbox : Type := (iv * iv)%type.
Definition inj_box (b : zbox) : box :=
  mkBox (inject_Z (fst (fst b))) (inject_Z (snd (fst b))) (inject_Z (fst (snd b))) (inject_Z (snd (snd b))).
Definition zbox_add (R C : Z) (b : zbox) (p : placed) : zbox :=
  (iv_add R (fst b) (zx p) (zxw p), iv_add C (snd b) (zy p) (zyw p)).
Definition in_zbox (b : zbox) (x y : Z) : Prop := in_iv (fst b) x /\ in_iv (snd b) y.
Definition zbox_ok (R C : Z) (b : zbox) : Prop := iv_ok R (fst b) /\ iv_ok C (snd b).
Definition good_placed (R C : Z) (p : placed) : Prop :=
  (0 <= zx p < R /\ 0 <= zy p < C /\ 0 <= zxw p /\ 0 <= zyw p)%Z.

Lemma box_add_Z : forall im b p, wf_placed p ->
  box_add im (inj_box b) p = inj_box (zbox_add (rows im) (cols im) b p).
Proof.
  intros im [[a b'] [c d]] p [Hx Hy]. unfold box_add, zbox_add, inj_box, iv_add. cbn [fst snd b_xmin b_xmax b_ymin b_ymax].
  remember (zx p) as X eqn:EX. remember (zy p) as Y eqn:EY. rewrite Hx, Hy.
  rewrite (cut_xwidth_int (p_sx p) (p_sy p)), (cut_ywidth_int (p_sx p) (p_sy p)).
  rewrite xmin_upd_spec, xmax_upd_spec, ymin_upd_spec, ymax_upd_spec.
  unfold zxw, zyw. reflexivity.
Qed.

Lemma fold_box_Z : forall im incl b, Forall wf_placed incl ->
  fold_left (box_add im) incl (inj_box b) = inj_box (fold_left (zbox_add (rows im) (cols im)) incl b).
Proof.
  intros im incl. induction incl as [|p incl IH]; intros b H; cbn [fold_left]; [reflexivity|].
  inversion H as [|? ? Hp Hrest]; subst. rewrite box_add_Z by assumption. apply IH. assumption.
Qed.

Lemma island_box_Z : forall im incl, Forall wf_placed incl ->
  island_box im incl = inj_box (fold_left (zbox_add (rows im) (cols im)) incl ((rows im, 0), (cols im, 0))%Z).
Proof.
  intros im incl H. unfold island_box, box_init.
  rewrite xmin_init_spec, xmax_init_spec, ymin_init_spec, ymax_init_spec. apply (fold_box_Z im incl (_, 0, (_, 0))%Z H).
Qed.

(* Started from the empty box of an image that has a pixel, the fold stays inside the image (each step
   does) and contains the nearest pixel of every source: the step that adds it does, the later ones only widen. *)
Lemma cutout_Z : forall R C incl p0, Forall (good_placed R C) incl -> In p0 incl ->
  let b := fold_left (zbox_add R C) incl ((R, 0), (C, 0))%Z in
  zbox_ok R C b /\ forall p, In p incl -> in_zbox b (zx p) (zy p).
Proof.
  intros R C incl p0 Hgood Hp0 b. split.
  - apply (fold_left_inv (zbox_ok R C)).
    + intros a p _ [Hx Hy]. split; apply iv_add_ok; assumption.
    + rewrite Forall_forall in Hgood. destruct (Hgood p0 Hp0) as (Hx & Hy & _).
      unfold zbox_ok, iv_ok. cbn [fst snd]. lia.
  - intros p Hp. subst b. apply in_split in Hp. destruct Hp as (l1 & l2 & ->). rewrite fold_left_app. cbn [fold_left].
    apply (fold_left_inv (fun b => in_zbox b (zx p) (zy p))).
    + intros a q _ [Hx Hy]. split; apply iv_add_mono; assumption.
    + destruct (Forall_elt _ _ _ Hgood) as (Hx & Hy & Hw & Hh). split; apply iv_add_contains; assumption.
Qed.

Section Placement.
  Variable S : Q * Q -> Q * Q.
  Variable SE : Q * Q -> ell -> ell.
  Variable BM : Q * Q -> Q * Q.
  Variable kf : Q.
  Variable im : image.

  Notation place := (place S SE BM kf).
  Notation accepted := (accepted im).
  Notation included := (included S SE BM kf im).
  Notation refit_input := (refit_input S SE BM kf im).

  Lemma place_wf : forall s, wf_placed (place s).
  Proof.
    intro s. unfold wf_placed, zx, zy, Priorized.place. cbn [p_x p_y].
    rewrite nearest_x_spec, nearest_y_spec, !Qfloor_Z. split; reflexivity.
  Qed.

  Lemma place_src : forall s, p_src (place s) = s.
  Proof. reflexivity. Qed.

  Lemma included_inv : forall isle p, In p (included isle) -> exists s, In s isle /\ p = place s /\ accepted p = true.
  Proof.
    intros isle p Hin. unfold Priorized.included in Hin. apply filter_In in Hin. destruct Hin as [Hin Hacc].
    apply in_map_iff in Hin. destruct Hin as (s & <- & Hs). exists s. repeat split; assumption.
  Qed.

  Lemma included_wf : forall isle, Forall wf_placed (included isle).
  Proof.
    intro isle. apply Forall_forall. intros p Hin. destruct (included_inv _ _ Hin) as (s & _ & -> & _). apply place_wf.
  Qed.

  Lemma included_src : forall isle, map p_src (included isle) = filter (fun s => accepted (place s)) isle.
  Proof. intro isle. unfold Priorized.included. rewrite filter_map_comm, map_map. apply map_id. Qed.

  Lemma accepted_spec : forall p, wf_placed p ->
    accepted p = ((0 <=? zx p)%Z && (zx p <? rows im)%Z && ((0 <=? zy p)%Z && (zy p <? cols im)%Z)
                  && finite_at (data_blank im) (zx p) (zy p) && finite_at (rms_blank im) (zx p) (zy p)).
  Proof.
    intros p [Hx Hy]. unfold Priorized.accepted. rewrite Hx, Hy, rejected_spec, negb_involutive.
    rewrite !Qfloor_Z, andb_true_r. reflexivity.
  Qed.

  Lemma included_good : forall isle, (forall s, In s isle -> 0 <= p_sx (place s)) ->
    Forall (good_placed (rows im) (cols im)) (included isle).
  Proof.
    intros isle Hsize. apply Forall_forall. intros p Hin. destruct (included_inv _ _ Hin) as (s & Hs & -> & Hacc).
    rewrite (accepted_spec _ (place_wf s)), !andb_true_iff in Hacc. destruct Hacc as [[[[H1 H2] [H3 H4]] _] _].
    apply Z.leb_le in H1, H3. apply Z.ltb_lt in H2, H4.
    pose proof (cut_xwidth_pos _ (p_sy (place s)) (Hsize s Hs)). pose proof (cut_ywidth_pos _ (p_sy (place s)) (Hsize s Hs)).
    unfold good_placed, zxw, zyw. lia.
  Qed.

  Lemma refit_input_skip : forall l1 r l2, accepted (place r) = false -> refit_input (l1 ++ r :: l2) = refit_input (l1 ++ l2).
  Proof.
    intros l1 r l2 H. unfold Priorized.refit_input, Priorized.included.
    rewrite !map_app, !filter_app. cbn [map filter]. rewrite H. reflexivity.
  Qed.

  Lemma refit_input_inv : forall isle fi, refit_input isle = Some fi ->
    (exists p, In p (included isle)) /\
    fi_box fi = island_box im (included isle) /\
    fi_slice fi = box_slice (fi_box fi) /\
    fi_pars fi = map (comp_params kf (fi_box fi)) (included isle) /\
    fi_incl fi = map p_src (included isle).
  Proof.
    intros isle fi H. unfold Priorized.refit_input in H. destruct (included isle) as [|p incl] eqn:E; [discriminate|].
    inversion H; subst; clear H. cbn [fi_box fi_slice fi_pars fi_incl]. repeat split; try reflexivity.
    exists p. left. reflexivity.
  Qed.

  Lemma cutout_registered : forall isle fi,
    (forall s, In s isle -> 0 <= p_sx (place s)) ->
    refit_input isle = Some fi ->
    exists xlo xhi ylo yhi : Z,
      fi_box fi = mkBox (inject_Z xlo) (inject_Z xhi) (inject_Z ylo) (inject_Z yhi) /\
      fi_slice fi = (inject_Z xlo, inject_Z xhi, inject_Z ylo, inject_Z yhi) /\
      box_shift_x (fi_box fi) = inject_Z xlo /\ box_shift_y (fi_box fi) = inject_Z ylo /\
      (0 <= xlo < xhi /\ xhi <= rows im /\ 0 <= ylo < yhi /\ yhi <= cols im)%Z /\
      forall p, In p (included isle) ->
        (xlo <= zx p < xhi /\ ylo <= zy p < yhi)%Z /\
        c_xo (comp_params kf (fi_box fi) p) + inject_Z xlo == p_px p /\
        c_yo (comp_params kf (fi_box fi) p) + inject_Z ylo == p_py p /\
        c_xo_lo (comp_params kf (fi_box fi) p) + inject_Z xlo == xo_lower (p_px p) (p_sx p) /\
        c_xo_hi (comp_params kf (fi_box fi) p) + inject_Z xlo == xo_upper (p_px p) (p_sx p) /\
        c_yo_lo (comp_params kf (fi_box fi) p) + inject_Z ylo == yo_lower (p_py p) (p_sy p) /\
        c_yo_hi (comp_params kf (fi_box fi) p) + inject_Z ylo == yo_upper (p_py p) (p_sy p).
  Proof.
    intros isle fi Hsize H. destruct (refit_input_inv _ _ H) as ([p0 Hp0] & Hbox & Hslice & _).
    rewrite (island_box_Z im _ (included_wf isle)) in Hbox.
    destruct (cutout_Z _ _ _ p0 (included_good isle Hsize) Hp0) as [Hok Hcont].
    remember (fold_left (zbox_add (rows im) (cols im)) (included isle) (rows im, 0, (cols im, 0))%Z) as zb eqn:Ezb.
    clear Ezb. destruct zb as [[xlo xhi] [ylo yhi]]. exists xlo, xhi, ylo, yhi.
    unfold inj_box in Hbox. cbn [fst snd] in Hbox. rewrite Hslice, Hbox.
    unfold comp_params, box_slice, box_shift_x, box_shift_y. cbn [b_xmin b_xmax b_ymin b_ymax].
    rewrite shift_x_spec, shift_y_spec. destruct (slice_spec xlo xhi ylo yhi) as (S1 & S2 & S3 & S4).
    split; [reflexivity|]. split; [rewrite S1, S2, S3, S4; reflexivity|]. split; [reflexivity|]. split; [reflexivity|].
    split.
    - destruct (Hcont p0 Hp0) as [Hx Hy]. destruct Hok as [Hxo Hyo]. unfold in_iv, iv_ok in *. cbn [fst snd] in *. lia.
    - intros p Hin. split; [exact (Hcont p Hin)|]. cbn [c_xo c_yo c_xo_lo c_xo_hi c_yo_lo c_yo_hi]. repeat split; ring.
  Qed.
End Placement.

Section Output.
  Variable S P : Q * Q -> Q * Q.
  Variable SE PE : Q * Q -> ell -> ell.
  Variable BM : Q * Q -> Q * Q.
  Variable kf kc : Q.
  Variable fit : Z -> fit_input -> option (list cfit).
  Variable im : image.

  Notation place := (place S SE BM kf).
  Notation included := (included S SE BM kf im).
  Notation refit_input := (refit_input S SE BM kf im).
  Notation to_component := (to_component P PE kc).
  Notation island_out := (island_out S P SE PE BM kf kc fit im).
  Notation run := (run S P SE PE BM kf kc fit im).
  Notation accepted_inputs := (accepted_inputs S SE BM kf im).

  Lemma to_component_ids : forall st fl k b j f s,
    let c := to_component st fl k b j (f, s) in
    o_island c = k /\ o_source c = j /\ o_uuid c = s_uuid s /\
    o_flags c = Z.lor (Z.lor (Z.lor fl (c_flags (f_par f))) flag_PRIORIZED) (if copy_pos_err st then flag_FIXED2PSF else 0%Z) /\
    o_peak c = c_amp (f_par f) /\
    o_err_ra c = (if copy_pos_err st then copied_err (s_err_ra s) else f_err_ra f) /\
    o_err_dec c = (if copy_pos_err st then copied_err (s_err_dec s) else f_err_dec f) /\
    o_err_a c = (if copy_shape_err st then copied_err (s_err_a s) else f_err_a f) /\
    o_err_b c = (if copy_shape_err st then copied_err (s_err_b s) else f_err_b f) /\
    o_err_pa c = (if copy_shape_err st then copied_err (s_err_pa s) else f_err_pa f).
  Proof.
    intros st fl k b j f s. unfold Priorized.to_component. cbn [fst snd].
    destruct (fix_shape _ _ _) as [[a' b'] pa']. cbn. repeat split; reflexivity.
  Qed.

  Lemma to_component_sky : forall st fl k b j f s,
    let c := to_component st fl k b j (f, s) in
    let cp := f_par f in
    let xp := array_to_fits_x (c_xo cp) (c_yo cp) (b_xmin b) (b_xmax b) (b_ymin b) (b_ymax b) in
    let yp := array_to_fits_y (c_xo cp) (c_yo cp) (b_xmin b) (b_xmax b) (b_ymin b) (b_ymax b) in
    let sky := P (xp, yp) in
    let e := PE (xp, yp) (mkEll (from_cc (c_sx cp) kc) (from_cc (c_sy cp) kc) (c_theta cp)) in
    let sh := fix_shape (to_arcsec (el_a e)) (to_arcsec (el_b e)) (el_pa e) in
    o_xpix c = xp /\ o_ypix c = yp /\
    o_ra c = (if Qltb (fst sky) (0 # 1) then fst sky + (360 # 1) else fst sky) /\ o_dec c = snd sky /\
    o_a c = fst (fst sh) /\ o_b c = snd (fst sh) /\ o_pa c = pa_limit (snd sh).
  Proof.
    intros st fl k b j f s. unfold Priorized.to_component. cbn [fst snd].
    destruct (fix_shape _ _ _) as [[a' b'] pa']. cbn [o_xpix o_ypix o_ra o_dec o_a o_b o_pa fst snd]. repeat split; reflexivity.
  Qed.

  Lemma component_uuids : forall st fl k b l j, map o_uuid (imap (to_component st fl k b) j l) = map s_uuid (map snd l).
  Proof.
    intros st fl k b l j. rewrite map_map. apply imap_map_ext. intros i [f s]. apply (to_component_ids st fl k b i f s).
  Qed.

  Lemma accepted_inputs_In : forall islands isle p,
    In isle islands -> In p (included isle) -> In (p_src p) (accepted_inputs islands).
  Proof.
    intros islands isle p Hi Hp. unfold Priorized.accepted_inputs. apply in_concat. exists (map p_src (included isle)).
    split; [apply in_map_iff; exists isle; auto|apply in_map; exact Hp].
  Qed.

  (* every output is made from the optimiser's n-th result, returned for parameters whose n-th entry
     is that of an accepted input *)
  Lemma run_source : forall st islands c, In c (run st islands) ->
    exists fl k fi fs n f s,
      In s (accepted_inputs islands) /\ fit st fi = Some fs /\ nth_error fs n = Some f /\
      nth_error (fi_pars fi) n = Some (comp_params kf (fi_box fi) (place s)) /\
      c = to_component st fl k (fi_box fi) (Z.of_nat n) (f, s).
  Proof.
    intros st islands c Hin. unfold Priorized.run in Hin. apply in_concat in Hin. destruct Hin as (l & Hl & Hc).
    apply imap_In in Hl. destruct Hl as (k & isle & Hk & ->). unfold Priorized.island_out in Hc.
    destruct (refit_input isle) as [fi|] eqn:Efi; [|destruct Hc]. destruct (fit st fi) as [fs|] eqn:Efs; [|destruct Hc].
    apply imap_In in Hc. destruct Hc as (n & [f s] & Hn & ->). apply nth_error_combine in Hn. destruct Hn as [Hf Hs].
    destruct (refit_input_inv _ _ _ _ _ _ _ Efi) as (_ & _ & _ & Hpars & Hincl). rewrite Hincl, nth_error_map in Hs.
    destruct (nth_error (included isle) n) as [p|] eqn:Hp; [|discriminate]. injection Hs as <-.
    destruct (included_inv _ _ _ _ _ _ _ (nth_error_In _ _ Hp)) as (s & _ & -> & _).
    exists (isle_flags isle), (Z.of_nat k), fi, fs, n, f, s.
    split; [exact (accepted_inputs_In _ _ _ (nth_error_In _ _ Hk) (nth_error_In _ _ Hp))|].
    split; [exact Efs|]. split; [exact Hf|]. split; [|reflexivity]. rewrite Hpars. exact (map_nth_error _ _ _ Hp).
  Qed.

  Lemma island_out_uuids : forall st k isle,
    subseq (map o_uuid (island_out st k isle)) (map s_uuid (map p_src (included isle))).
  Proof.
    intros st k isle. unfold Priorized.island_out.
    destruct (refit_input isle) as [fi|] eqn:Efi; [|apply sub_nil].
    destruct (fit st fi) as [fs|] eqn:Efs; [|apply sub_nil].
    destruct (refit_input_inv _ _ _ _ _ _ _ Efi) as (_ & _ & _ & _ & Hincl).
    rewrite component_uuids, <- Hincl. apply subseq_map. apply subseq_combine_snd.
  Qed.

  Lemma run_uuids : forall st islands k,
    subseq (map o_uuid (concat (imap (island_out st) k islands))) (map s_uuid (accepted_inputs islands)).
  Proof.
    intros st islands. induction islands as [|isle islands IH]; intro k; cbn [imap concat map].
    - apply sub_nil.
    - unfold Priorized.accepted_inputs. cbn [map concat]. rewrite !map_app. apply subseq_app.
      + apply island_out_uuids.
      + apply IH.
  Qed.

  Lemma accepted_uuids : forall islands, subseq (map s_uuid (accepted_inputs islands)) (map s_uuid (concat islands)).
  Proof.
    intro islands. apply subseq_map. unfold Priorized.accepted_inputs.
    induction islands as [|isle islands IH]; cbn [map concat]; [apply sub_nil|].
    apply subseq_app; [|exact IH]. rewrite included_src. apply subseq_filter.
  Qed.

  Lemma run_priorized : forall st islands c, In c (run st islands) -> Z.testbit (o_flags c) 6 = true.
  Proof.
    intros st islands c Hin. destruct (run_source _ _ _ Hin) as (fl & k & fi & _ & n & f & s & _ & _ & _ & _ & ->).
    destruct (to_component_ids st fl k (fi_box fi) (Z.of_nat n) f s) as (_ & _ & _ & Hfl & _).
    rewrite Hfl, flag_PRIORIZED_spec, !Z.lor_spec. change (Z.testbit 64 6) with true. rewrite orb_true_r. reflexivity.
  Qed.

  Lemma all_returned : forall st islands,
    (forall fi, exists fs, fit st fi = Some fs /\ length fs = length (fi_pars fi)) ->
    map o_uuid (run st islands) = map s_uuid (accepted_inputs islands).
  Proof.
    intros st islands Hfit. unfold Priorized.run, Priorized.accepted_inputs. generalize 0%Z as k.
    induction islands as [|isle islands IH]; intro k; cbn [imap concat map]; [reflexivity|].
    rewrite !map_app, IH. f_equal. unfold Priorized.island_out.
    destruct (refit_input isle) as [fi|] eqn:Efi.
    - destruct (Hfit fi) as (fs & Efs & Hlen). rewrite Efs.
      destruct (refit_input_inv _ _ _ _ _ _ _ Efi) as (_ & _ & _ & Hpars & Hincl).
      rewrite component_uuids, map_snd_combine, Hincl; [reflexivity|].
      rewrite Hlen, Hpars, Hincl, !map_length. reflexivity.
    - unfold Priorized.refit_input in Efi. destruct (included isle); [reflexivity|discriminate].
  Qed.

  Lemma errors_copied : forall st islands c, In c (run st islands) ->
    exists s, In s (accepted_inputs islands) /\ o_uuid c = s_uuid s /\
      ((st < 2)%Z -> o_err_ra c = copied_err (s_err_ra s) /\ o_err_dec c = copied_err (s_err_dec s) /\ Z.testbit (o_flags c) 2 = true) /\
      ((st < 3)%Z -> o_err_a c = copied_err (s_err_a s) /\ o_err_b c = copied_err (s_err_b s) /\ o_err_pa c = copied_err (s_err_pa s)).
  Proof.
    intros st islands c Hin. destruct (run_source _ _ _ Hin) as (fl & k & fi & _ & n & f & s & Hs & _ & _ & _ & ->).
    exists s. split; [exact Hs|].
    destruct (to_component_ids st fl k (fi_box fi) (Z.of_nat n) f s) as (_ & _ & Hu & Hfl & _ & E1 & E2 & E3 & E4 & E5).
    split; [exact Hu|]. split.
    - intro Hst. rewrite E1, E2, Hfl, copy_pos_err_spec. apply Z.ltb_lt in Hst. rewrite Hst.
      repeat split; try reflexivity. rewrite flag_FIXED2PSF_spec, Z.lor_spec. change (Z.testbit 4 2) with true. apply orb_true_r.
    - intro Hst. rewrite E3, E4, E5, copy_shape_err_spec. apply Z.ltb_lt in Hst. rewrite Hst. repeat split; reflexivity.
  Qed.

  Lemma isle_flags_skip : forall l1 r l2, l2 <> [] -> isle_flags (l1 ++ r :: l2) = isle_flags (l1 ++ l2).
  Proof.
    intros l1 r l2 H. unfold isle_flags. destruct l2 as [|x l2 _] using rev_ind; [contradiction|].
    rewrite app_comm_cons, !app_assoc, !rev_unit. reflexivity.
  Qed.

  Lemma run_skip : forall st I1 I2 l1 r l2,
    accepted im (place r) = false -> isle_flags (l1 ++ r :: l2) = isle_flags (l1 ++ l2) ->
    run st (I1 ++ (l1 ++ r :: l2) :: I2) = run st (I1 ++ (l1 ++ l2) :: I2).
  Proof.
    intros st I1 I2 l1 r l2 Hrej Hfl. unfold Priorized.run. rewrite !imap_app. cbn [imap].
    unfold Priorized.island_out. rewrite (refit_input_skip S SE BM kf im l1 r l2 Hrej), Hfl. reflexivity.
  Qed.
End Output.

Lemma clip_inside : forall v lo hi, lo <= v -> v <= hi -> clip v lo hi = v.
Proof.
  intros v lo hi H1 H2. unfold clip.
  rewrite (proj2 (Qltb_false_iff hi v) H2), (proj2 (Qltb_false_iff v lo) H1). reflexivity.
Qed.

Lemma fix_shape_id : forall a b pa, b <= a -> fix_shape a b pa = (a, b, pa).
Proof. intros a b pa H. unfold fix_shape. rewrite (proj2 (Qltb_false_iff a b) H). reflexivity. Qed.

Lemma pa_limit_fuel_inside : forall n pa, -(90 # 1) < pa -> pa <= (90 # 1) -> pa_limit_fuel n pa = pa.
Proof.
  intros [|n] pa H1 H2; cbn [pa_limit_fuel]; [reflexivity|].
  rewrite (proj2 (Qleb_false_iff pa (-90 # 1)) H1), (proj2 (Qltb_false_iff (90 # 1) pa) H2). reflexivity.
Qed.
Lemma pa_limit_inside : forall pa, -(90 # 1) < pa -> pa <= (90 # 1) -> pa_limit pa = pa.
Proof. intros pa. apply pa_limit_fuel_inside. Qed.

Lemma shape_unclipped_true : forall kf p, 0 <= p_sx p -> 0 <= p_sy p -> shape_unclipped kf p = true.
Proof.
  intros kf p Hx Hy. unfold shape_unclipped, shape_lo, shape_hi.
  destruct (shape_limits_spec (p_sx p) (p_sy p) (p_beam_a p) (p_beam_b p) kf Hx Hy) as (L1 & L2 & L3 & L4).
  apply Qleb_iff in L1, L2, L3, L4. rewrite L1, L2, L3, L4. reflexivity.
Qed.

Lemma shape_kept : forall kf b p, 0 <= p_sx p -> 0 <= p_sy p ->
  c_sx (comp_params kf b p) = p_sx p /\ c_sy (comp_params kf b p) = p_sy p.
Proof.
  intros kf b p Hx Hy. destruct (shape_limits_spec (p_sx p) (p_sy p) (p_beam_a p) (p_beam_b p) kf Hx Hy) as (L1 & L2 & L3 & L4).
  split; apply clip_inside; assumption.
Qed.

(* what the optimiser leaves alone at the stages that fix the position / the shape *)
Lemma keeps_pos : forall st c f, (st < 2)%Z -> keeps st c f -> c_xo (f_par f) == c_xo c /\ c_yo (f_par f) == c_yo c.
Proof.
  intros st c f Hst (Kx & Ky & _). rewrite vary_xo_spec in Kx. rewrite vary_yo_spec in Ky.
  apply Z.leb_gt in Hst. split; [apply Kx|apply Ky]; exact Hst.
Qed.
Lemma keeps_shape : forall st c f, (st < 3)%Z -> keeps st c f ->
  c_sx (f_par f) == c_sx c /\ c_sy (f_par f) == c_sy c /\ c_theta (f_par f) == c_theta c.
Proof.
  intros st c f Hst (_ & _ & Ksx & Ksy & Kth). rewrite vary_sx_spec in Ksx. rewrite vary_sy_spec in Ksy.
  rewrite vary_theta_spec in Kth. apply Z.leb_gt in Hst. repeat split; [apply Ksx|apply Ksy|apply Kth]; exact Hst.
Qed.

Section Roundtrip.
  Variable S P : Q * Q -> Q * Q.
  Variable SE PE : Q * Q -> ell -> ell.
  Variable BM : Q * Q -> Q * Q.
  Variable kf kc : Q.
  Variable fit : Z -> fit_input -> option (list cfit).
  Variable im : image.
  Hypothesis H_PS : wcs_inverts S P.
  Hypothesis H_k : kf * kc == 1.
  Hypothesis H_fit : fit_keeps_fixed fit.

  Notation place := (place S SE BM kf).
  Notation to_component := (to_component P PE kc).
  Notation run := (run S P SE PE BM kf kc fit im).
  Notation accepted_inputs := (accepted_inputs S SE BM kf im).

  (* a cut-out position equal to the one handed to the optimiser is the FITS pixel of the catalogue position *)
  Lemma placed_frame : forall b s xo yo,
    xo == c_xo (comp_params kf b (place s)) -> yo == c_yo (comp_params kf b (place s)) ->
    peq (array_to_fits_x xo yo (b_xmin b) (b_xmax b) (b_ymin b) (b_ymax b),
         array_to_fits_y xo yo (b_xmin b) (b_xmax b) (b_ymin b) (b_ymax b))
        (S (s_ra s, s_dec s)).
  Proof.
    intros b s xo yo Hx Hy. unfold peq. cbn [fst snd]. rewrite array_to_fits_x_spec, array_to_fits_y_spec, Hx, Hy.
    unfold comp_params, box_shift_x, box_shift_y, Priorized.place. cbn [c_xo c_yo p_px p_py].
    rewrite shift_x_spec, shift_y_spec, fits_to_array_x_spec, fits_to_array_y_spec. split; ring.
  Qed.

  Lemma fixed_roundtrip : forall st islands c, In c (run st islands) ->
    exists s, In s (accepted_inputs islands) /\ o_uuid c = s_uuid s /\
      ((st < 2)%Z -> peq (o_xpix c, o_ypix c) (S (s_ra s, s_dec s)) /\
                     (0 <= s_ra s -> o_ra c == s_ra s /\ o_dec c == s_dec s)) /\
      ((st < 3)%Z -> 0 <= p_sx (place s) -> 0 <= p_sy (place s) ->
         s_b s <= s_a s -> -(90 # 1) < s_pa s -> s_pa s <= (90 # 1) ->
         ell_inverts_at SE PE (s_ra s, s_dec s) (o_xpix c, o_ypix c) ->
         o_a c == s_a s /\ o_b c == s_b s /\ o_pa c == s_pa s).
  Proof.
    intros st islands c Hin.
    destruct (run_source S P SE PE BM kf kc fit im _ _ _ Hin) as (fl & k & fi & fs & n & f & s & Hs & Efs & Hf & Hpar & ->).
    pose proof (Forall2_nth _ _ _ n _ _ (H_fit _ _ _ Efs) Hpar Hf) as Hkeep.
    exists s. split; [exact Hs|]. split; [apply (to_component_ids P PE kc st fl k (fi_box fi) (Z.of_nat n) f s)|].
    destruct (to_component_sky P PE kc st fl k (fi_box fi) (Z.of_nat n) f s) as (Exp & Eyp & Era & Edec & Ea & Eb & Epa).
    rewrite Exp, Eyp. split.
    - (* position: the fitted xo, yo are those handed over *)
      intros Hst. destruct (keeps_pos _ _ _ Hst Hkeep) as [Kx Ky].
      pose proof (placed_frame (fi_box fi) s _ _ Kx Ky) as Hpos. split; [exact Hpos|].
      intro Hra. rewrite Era, Edec. destruct (H_PS _ _ Hpos) as [P1 P2]. cbn [fst snd] in P1, P2.
      destruct (Qltb _ (0 # 1)) eqn:E0; [|split; assumption].
      apply Qltb_iff in E0. rewrite P1 in E0. exfalso. exact (Qlt_not_le _ _ E0 Hra).
    - (* shape: the fitted ellipse is SE of the catalogue one, which PE inverts; fix_shape and pa_limit
         leave a normalised shape alone *)
      intros Hst Hsx0 Hsy0 Hba Hpa1 Hpa2 Hinv. destruct (keeps_shape _ _ _ Hst Hkeep) as (Ksx & Ksy & Kth).
      destruct (shape_kept kf (fi_box fi) (place s) Hsx0 Hsy0) as [Esx Esy]. rewrite Esx in Ksx. rewrite Esy in Ksy.
      destruct (Hinv (mkEll (to_deg (s_a s)) (to_deg (s_b s)) (s_pa s))
                     (mkEll (from_cc (c_sx (f_par f)) kc) (from_cc (c_sy (f_par f)) kc) (c_theta (f_par f)))) as (L1 & L2 & L3).
      { unfold elleq. cbn [el_a el_b el_pa]. rewrite !from_cc_spec, Ksx, Ksy, Kth.
        unfold comp_params, Priorized.place. cbn [p_sx p_sy p_theta c_theta]. rewrite !to_cc_spec.
        repeat split; try reflexivity; rewrite <- Qmult_assoc, H_k; ring. }
      cbn [el_a el_b el_pa] in L1, L2, L3. apply arcsec_deg_roundtrip in L1, L2.
      rewrite Ea, Eb, Epa, fix_shape_id by (rewrite L1, L2; exact Hba). cbn [fst snd].
      rewrite pa_limit_inside by (rewrite L3; assumption). repeat split; assumption.
  Qed.
End Roundtrip.

Lemma vary_table_spec :
  vary_table 1 = [true; false; false; false; false; false] /\
  vary_table 2 = [true; true; true; false; false; false] /\
  vary_table 3 = [true; true; true; true; true; true] /\
  forall st,
    vary_amp st = true /\
    (vary_xo st = true <-> (2 <= st)%Z) /\ (vary_yo st = true <-> (2 <= st)%Z) /\
    (vary_sx st = true <-> (3 <= st)%Z) /\ (vary_sy st = true <-> (3 <= st)%Z) /\ (vary_theta st = true <-> (3 <= st)%Z) /\
    copy_pos_err st = negb (vary_xo st && vary_yo st) /\
    copy_shape_err st = negb (vary_sx st && vary_sy st && vary_theta st).
Proof.
  assert (T : forall st, vary_table st = [true; (2 <=? st)%Z; (2 <=? st)%Z; (3 <=? st)%Z; (3 <=? st)%Z; (3 <=? st)%Z]).
  { intro st. unfold vary_table.
    rewrite (vary_amp_spec st), (vary_xo_spec st), (vary_yo_spec st), (vary_sx_spec st), (vary_sy_spec st), (vary_theta_spec st).
    reflexivity. }
  rewrite !T. repeat split; try reflexivity;
    rewrite ?vary_xo_spec, ?vary_yo_spec, ?vary_sx_spec, ?vary_sy_spec, ?vary_theta_spec, ?copy_pos_err_spec,
      ?copy_shape_err_spec, ?andb_diag; try apply Z.leb_le; apply Z.ltb_antisym.
Qed.
