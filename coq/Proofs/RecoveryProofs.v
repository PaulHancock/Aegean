(* C01 - the conversion chain that surrounds the optimiser (Model/Recovery.v): pixel ellipse <-> sky ellipse, the reported
   shape (fix_shape, pa_limit), the box handed to lmfit, and recovery of the injected component under the optimiser hypothesis.
   Each generated leaf of Gen/Recovery.v (and, further down, the Gaussian of Gen/Gauss.v: gauss_eq) gets one characterising
   lemma `*_eq` and is opaque in this file from then on. *)
From Coq Require Import Reals Lra Lia Psatz List.
From Aegean Require Import Lib.RBase Gen.Sphere Lib.Sphere Gen.Gauss Gen.Recovery
     Model.FitModel Model.Recovery.
Import ListNotations.
Open Scope R_scope.

Lemma ln2_pos : 0 < ln 2.
Proof. rewrite <- ln_1. apply ln_increasing; lra. Qed.
Lemma CC2FHWM_eq : CC2FHWM = 2 * sqrt (2 * ln 2).
Proof. reflexivity. Qed.
Lemma CC2FHWM_pos : 0 < CC2FHWM.
Proof. rewrite CC2FHWM_eq. pose proof ln2_pos. assert (0 < sqrt (2 * ln 2)) by (apply sqrt_lt_R0; lra). lra. Qed.
Lemma FWHM2CC_eq : FWHM2CC = 1 / CC2FHWM.
Proof. reflexivity. Qed.
Lemma FWHM2CC_pos : 0 < FWHM2CC.
Proof. rewrite FWHM2CC_eq. pose proof CC2FHWM_pos. apply Rdiv_lt_0_compat; lra. Qed.
Lemma FWHM_roundtrip x : x * FWHM2CC * CC2FHWM = x.
Proof. rewrite FWHM2CC_eq. pose proof CC2FHWM_pos. field. lra. Qed.

Definition minor_defect_pix (c m n : R * R) : R :=
  atan2 (snd m - snd c) (fst m - fst c) - (atan2 (snd n - snd c) (fst n - fst c) - PI / 2).
Lemma sky2pix_ellipse_eq S ra dec a b pa :
  sky2pix_ellipse S ra dec a b pa =
  let c := S (ra, dec) in let m := S (translate ra dec a pa) in let n := S (translate ra dec b (pa - 90)) in
  (fst c, snd c, hypot (fst c - fst m) (snd c - snd m),
   hypot (fst c - fst n) (snd c - snd n) * Rabs (cos (minor_defect_pix c m n)),
   deg (atan2 (snd m - snd c) (fst m - fst c))).
Proof. reflexivity. Qed.

Definition major_end (x y sx theta : R) : R * R := (x + sx * cos (rad theta), y + sx * sin (rad theta)).
Definition minor_end (x y sy theta : R) : R * R := (x + sy * cos (rad (theta - 90)), y + sy * sin (rad (theta - 90))).
Lemma pix2sky_ellipse_eq P x y sx sy theta :
  pix2sky_ellipse P x y sx sy theta =
  let c := P (x, y) in let m := P (major_end x y sx theta) in let n := P (minor_end x y sy theta) in
  (fst c, snd c, gcd (fst c) (snd c) (fst m) (snd m),
   gcd (fst c) (snd c) (fst n) (snd n) *
     Rabs (cos (rad (bear (fst c) (snd c) (fst m) (snd m) - (bear (fst c) (snd c) (fst n) (snd n) - 90)))),
   bear (fst c) (snd c) (fst m) (snd m)).
Proof. reflexivity. Qed.

Lemma beamarea_pix_eq a b : beamarea_pix a b = a * b * PI.
Proof. reflexivity. Qed.
Lemma fix_shape_test_eq a b : fix_shape_test a b = Rltb a b.
Proof. reflexivity. Qed.
Lemma fix_shape_pa_eq pa : fix_shape_pa pa = pa + 90.
Proof. reflexivity. Qed.
Lemma pa_lo_eq pa : pa_lo_test pa = Rleb pa (-90) /\ pa_lo_step pa = pa + 180.
Proof. split; reflexivity. Qed.
Lemma pa_hi_eq pa : pa_hi_test pa = Rltb 90 pa /\ pa_hi_step pa = pa - 180.
Proof. split; reflexivity. Qed.
(* 1-based FITS pixel = island coordinate + island offset + 1 *)
Lemma rtc_pix_eq xo yo xmin ymin : rtc_x_pix xo xmin = xo + xmin + 1 /\ rtc_y_pix yo ymin = yo + ymin + 1.
Proof. split; reflexivity. Qed.
Lemma rtc_peak_eq amp : rtc_peak amp = amp.
Proof. reflexivity. Qed.
Lemma rtc_ellipse_args_eq x y sx sy theta :
  rtc_ellipse_args x y sx sy theta = (x, y, sx * CC2FHWM, sy * CC2FHWM, theta).
Proof. reflexivity. Qed.
Lemma rtc_factor_eq : rtc_a_factor = 3600 /\ rtc_b_factor = 3600.
Proof. split; reflexivity. Qed.
Lemma rtc_ra_wrap_eq ra : rtc_ra_wrap_test ra = Rltb ra 0 /\ rtc_ra_wrapped ra = ra + 360.
Proof. split; reflexivity. Qed.
Lemma rtc_int_flux_eq peak sx sy : rtc_int_flux peak sx sy = peak * (sx * CC2FHWM) * (sy * CC2FHWM) * PI.
Proof. unfold rtc_int_flux. ring. Qed.

Definition c105 : R := IZR 4728779608739021 / IZR 4503599627370496.   (* the binary64 literal 1.05 *)
Definition c095 : R := IZR 4278419646001971 / IZR 4503599627370496.   (* the binary64 literal 0.95 *)
Lemma c105_val : 1.05 - 1/10^15 < c105 < 1.05 + 1/10^15.
Proof. unfold c105. split; lra. Qed.
Lemma c095_val : 0.95 - 1/10^15 < c095 < 0.95 + 1/10^15.
Proof. unfold c095. split; lra. Qed.
Lemma amp_is_positive_eq amp : amp_is_positive amp = Rltb 0 amp.
Proof. reflexivity. Qed.
Lemma amp_pos_bounds_eq amp rms ic oc :
  amp_min_pos amp rms ic oc = c095 * Rmin (oc * rms) amp /\ amp_max_pos amp rms ic oc = amp * c105 + ic * rms.
Proof. split; reflexivity. Qed.
Lemma amp_neg_bounds_eq amp rms ic oc :
  amp_min_neg amp rms ic oc = amp * c105 - ic * rms /\ amp_max_neg amp rms ic oc = c095 * Rmax (- oc * rms) amp.
Proof. split; reflexivity. Qed.

Definition c101 : R := IZR 4548635623644201 / IZR 4503599627370496.   (* 1.01 *)
Definition c08 : R := IZR 3602879701896397 / IZR 4503599627370496.     (* 0.8 *)
Definition c11 : R := IZR 2476979795053773 / IZR 2251799813685248.     (* 1.1 *)
Lemma c08_val : 0 < c08 < 0.8 + 1/10^15.
Proof. unfold c08. split; lra. Qed.
Lemma c101_val : 1.01 - 1/10^15 < c101 < 1.01 + 1/10^15.
Proof. unfold c101. split; lra. Qed.
Lemma c11_val : 1.1 - 1/10^15 < c11 < 1.1 + 1/10^15.
Proof. unfold c11. split; lra. Qed.
Definition sx_start (ba bb : R) : R := Rmax (ba * FWHM2CC) (bb * FWHM2CC * c101).
Definition size_cap (ba bb xsize ysize : R) : R :=
  Rmax ((Rmax xsize ysize + 1) * sqrt 2 * FWHM2CC) (sx_start ba bb * c11).
Lemma pos_bounds_eq xo yo ba bb xsize ysize :
  xo_bounds xo yo ba bb xsize ysize = (xo - 1/2 * hypot ba bb, xo + 1/2 * hypot ba bb) /\
  yo_bounds xo yo ba bb xsize ysize = (yo - 1/2 * hypot ba bb, yo + 1/2 * hypot ba bb).
Proof. split; reflexivity. Qed.
Lemma shape_init_eq xo yo ba bb xsize ysize :
  shape_init xo yo ba bb xsize ysize = (sx_start ba bb, bb * FWHM2CC).
Proof. reflexivity. Qed.
Lemma shape_bounds_eq xo yo ba bb xsize ysize :
  sx_bounds xo yo ba bb xsize ysize = (bb * FWHM2CC * c08, size_cap ba bb xsize ysize) /\
  sy_bounds xo yo ba bb xsize ysize = (bb * FWHM2CC * c08, size_cap ba bb xsize ysize).
Proof. split; reflexivity. Qed.

(* fitting.errors: the pixels whose sky distance is reported as err_a / err_b are the ends of the FWHM axes for sx (sy) and for
   sx + err_sx (sy + err_sy); the minor axis is taken at theta + 90 *)
Lemma err_a_pixels_eq xo yo sx sy err_sx theta :
  err_a_ref xo yo sx sy theta = major_end xo yo (sx * CC2FHWM) theta /\
  err_a_off xo yo sx sy err_sx theta = major_end xo yo ((sx + err_sx) * CC2FHWM) theta /\ err_a_factor = 3600.
Proof. repeat split; reflexivity. Qed.
Lemma err_b_pixels_eq xo yo sx sy err_sy theta :
  err_b_ref xo yo sx sy theta = major_end xo yo (sy * CC2FHWM) (theta + 90) /\
  err_b_off xo yo sx sy err_sy theta = major_end xo yo ((sy + err_sy) * CC2FHWM) (theta + 90) /\ err_b_factor = 3600.
Proof. repeat split; reflexivity. Qed.

Lemma err_axes_follow_shape_eq : err_axes_follow_shape = true.
Proof. reflexivity. Qed.
Local Opaque err_a_ref err_a_off err_a_factor err_b_ref err_b_off err_b_factor err_axes_follow_shape.
Local Opaque CC2FHWM FWHM2CC sky2pix_ellipse pix2sky_ellipse beamarea_pix fix_shape_test fix_shape_pa
      pa_lo_test pa_lo_step pa_hi_test pa_hi_step rtc_x_pix rtc_y_pix rtc_peak rtc_ellipse_args rtc_a_factor
      rtc_b_factor rtc_ra_wrap_test rtc_ra_wrapped rtc_int_flux amp_is_positive amp_min_pos amp_max_pos
      amp_min_neg amp_max_neg xo_bounds yo_bounds shape_init sx_bounds sy_bounds gcd bear translate.

(* each loop of pa_limit, run with enough fuel, makes exactly the j steps after which its test fails for the first time *)
Lemma lo_loop n : forall j pa, (j <= n)%nat -> -90 < pa + 180 * INR j -> (j <> 0%nat -> pa + 180 * INR j <= 90) ->
  while_loop pa_lo_test pa_lo_step n pa = pa + 180 * INR j.
Proof.
  induction n as [|n IH]; intros j pa Hj Hlo Hhi.
  - replace j with 0%nat by lia. cbn [while_loop INR]. ring.
  - cbn [while_loop]. destruct (pa_lo_eq pa) as [-> ->]. destruct j as [|j].
    + cbn [INR] in *. rewrite (proj2 (Rleb_false _ _)) by lra. ring.
    + rewrite S_INR in *. pose proof (pos_INR j). specialize (Hhi (Nat.neq_succ_0 j)).
      rewrite (proj2 (Rleb_true _ _)), (IH j) by (lia || lra). ring.
Qed.
Lemma hi_loop n : forall j pa, (j <= n)%nat -> pa - 180 * INR j <= 90 -> (j <> 0%nat -> -90 < pa - 180 * INR j) ->
  while_loop pa_hi_test pa_hi_step n pa = pa - 180 * INR j.
Proof.
  induction n as [|n IH]; intros j pa Hj Hhi Hlo.
  - replace j with 0%nat by lia. cbn [while_loop INR]. ring.
  - cbn [while_loop]. destruct (pa_hi_eq pa) as [-> ->]. destruct j as [|j].
    + cbn [INR] in *. rewrite (proj2 (Rltb_false _ _)) by lra. ring.
    + rewrite S_INR in *. pose proof (pos_INR j). specialize (Hlo (Nat.neq_succ_0 j)).
      rewrite (proj2 (Rltb_true _ _)), (IH j) by (lia || lra). ring.
Qed.

Lemma pa_limit_eq pa (k : Z) : (Z.abs k <= Z.of_nat pa_fuel)%Z -> -90 < pa + 180 * IZR k <= 90 ->
  pa_limit pa = pa + 180 * IZR k.
Proof.
  intros Hk H. unfold pa_limit. destruct (Z_le_gt_dec 0 k) as [Hp|Hn].
  - (* k >= 0: the first loop makes k steps, the second none *)
    assert (E : INR (Z.to_nat k) = IZR k) by (rewrite INR_IZR_INZ, Z2Nat.id by lia; reflexivity).
    rewrite (lo_loop pa_fuel (Z.to_nat k)).
    + rewrite E, (hi_loop pa_fuel 0).
      * cbn [INR]. ring.
      * lia.
      * cbn [INR]. lra.
      * intros H0. contradiction H0. reflexivity.
    + lia.
    + rewrite E. lra.
    + intros _. rewrite E. lra.
  - (* k < 0: the first loop makes no step, the second - k *)
    assert (E : INR (Z.to_nat (- k)) = - IZR k) by (rewrite INR_IZR_INZ, Z2Nat.id, opp_IZR by lia; reflexivity).
    assert (Hk1 : IZR k <= -1) by (apply IZR_le; lia).
    rewrite (lo_loop pa_fuel 0).
    + cbn [INR]. rewrite (hi_loop pa_fuel (Z.to_nat (- k))).
      * rewrite E. ring.
      * lia.
      * rewrite E. lra.
      * intros _. rewrite E. lra.
    + lia.
    + cbn [INR]. lra.
    + intros H0. contradiction H0. reflexivity.
Qed.
Lemma pa_limit_id pa : -90 < pa <= 90 -> pa_limit pa = pa.
Proof. intros H. rewrite (pa_limit_eq pa 0) by ((unfold pa_fuel; lia) || lra). lra. Qed.
Lemma pa_limit_up pa : 90 < pa <= 270 -> pa_limit pa = pa - 180.
Proof. intros H. rewrite (pa_limit_eq pa (-1)) by ((unfold pa_fuel; lia) || lra). lra. Qed.
Lemma pa_limit_up2 pa : 270 < pa <= 450 -> pa_limit pa = pa - 360.
Proof. intros H. rewrite (pa_limit_eq pa (-2)) by ((unfold pa_fuel; lia) || lra). lra. Qed.
Lemma pa_limit_down pa : -270 < pa <= -90 -> pa_limit pa = pa + 180.
Proof. intros H. rewrite (pa_limit_eq pa 1) by ((unfold pa_fuel; lia) || lra). lra. Qed.
Lemma pa_limit_down2 pa : -450 < pa <= -270 -> pa_limit pa = pa + 360.
Proof. intros H. rewrite (pa_limit_eq pa 2) by ((unfold pa_fuel; lia) || lra). lra. Qed.

Lemma half_turns pa : -450 < pa <= 450 -> exists k : Z, (-2 <= k <= 2)%Z /\ -90 < pa + 180 * IZR k <= 90.
Proof.
  intros H.
  destruct (Rle_dec pa (-270)); [exists 2%Z; split; [lia|lra]|].
  destruct (Rle_dec pa (-90)); [exists 1%Z; split; [lia|lra]|].
  destruct (Rle_dec pa 90); [exists 0%Z; split; [lia|lra]|].
  destruct (Rle_dec pa 270); [exists (-1)%Z; split; [lia|lra]|]. exists (-2)%Z. split; [lia|lra].
Qed.
(* on every value that can reach it (a bearing in (-180, 180], plus 90 after fix_shape) pa_limit returns the
   representative of pa modulo 180 in (-90, 90] *)
Lemma pa_limit_spec pa : -450 < pa <= 450 ->
  -90 < pa_limit pa <= 90 /\ exists k : Z, pa_limit pa = pa + 180 * IZR k.
Proof.
  intros H. destruct (half_turns pa H) as (k & Hk & Hr). rewrite (pa_limit_eq pa k) by ((unfold pa_fuel; lia) || exact Hr).
  split; [exact Hr|]. exists k. reflexivity.
Qed.
Lemma pa_limit_period pa : -450 < pa <= 270 -> pa_limit (pa + 180) = pa_limit pa.
Proof.
  intros H. destruct (half_turns pa) as (k & Hk & Hr); [lra|].
  rewrite (pa_limit_eq pa k) by ((unfold pa_fuel; lia) || exact Hr).
  rewrite (pa_limit_eq (pa + 180) (k - 1)) by ((unfold pa_fuel; lia) || (rewrite minus_IZR; lra)).
  rewrite minus_IZR. ring.
Qed.

Lemma fix_shape_keep a b pa : b <= a -> fix_shape a b pa = (a, b, pa).
Proof. intros H. unfold fix_shape. rewrite fix_shape_test_eq, (proj2 (Rltb_false _ _)) by exact H. reflexivity. Qed.
Lemma fix_shape_swap a b pa : a < b -> fix_shape a b pa = (b, a, pa + 90).
Proof. intros H. unfold fix_shape. rewrite fix_shape_test_eq, fix_shape_pa_eq, (proj2 (Rltb_true _ _)) by exact H. reflexivity. Qed.

(* the reported shape: fix_shape then pa_limit *)
Definition canon (a b pa : R) : R * R * R := let f := fix_shape a b pa in (fst (fst f), snd (fst f), pa_limit (snd f)).
Lemma canon_keep a b pa : b <= a -> canon a b pa = (a, b, pa_limit pa).
Proof. intros H. unfold canon. rewrite fix_shape_keep by exact H. reflexivity. Qed.
Lemma canon_swap a b pa : a < b -> canon a b pa = (b, a, pa_limit (pa + 90)).
Proof. intros H. unfold canon. rewrite fix_shape_swap by exact H. reflexivity. Qed.
Lemma canon_ordered a b pa : -450 < pa <= 360 -> let k := canon a b pa in
  snd (fst k) <= fst (fst k) /\ -90 < snd k <= 90.
Proof.
  intros H. cbv zeta. destruct (Rlt_dec a b) as [Hab|Hab].
  - rewrite canon_swap by exact Hab. cbn [fst snd]. split; [lra | apply pa_limit_spec; lra].
  - rewrite canon_keep by lra. cbn [fst snd]. split; [lra | apply pa_limit_spec; lra].
Qed.
(* the three other parameterisations of the same ellipse give the same reported shape *)
Lemma canon_half a b pa : -450 < pa <= 180 -> canon a b (pa + 180) = canon a b pa.
Proof.
  intros H. destruct (Rlt_dec a b) as [Hab|Hab]; [rewrite !canon_swap by exact Hab | rewrite !canon_keep by lra]; f_equal.
  - replace (pa + 180 + 90) with (pa + 90 + 180) by ring. apply pa_limit_period. lra.
  - apply pa_limit_period. lra.
Qed.
Lemma canon_swap_down a b pa : b < a -> canon b a (pa - 90) = canon a b pa.
Proof. intros Hab. rewrite canon_swap, canon_keep by lra. do 2 f_equal. ring. Qed.
Lemma canon_swap_up a b pa : b < a -> -450 < pa <= 90 -> canon b a (pa + 90) = canon a b pa.
Proof.
  intros Hab H. rewrite canon_swap, canon_keep by lra. f_equal.
  replace (pa + 90 + 90) with (pa + 180) by ring. apply pa_limit_period. lra.
Qed.


(* result_to_components on a fit given in FITS pixel coordinates and FWHM axes: +xmin +1 undoes -1 -xmin, CC2FHWM undoes
   FWHM2CC, so the WCS is queried at the pixel ellipse itself *)
Lemma to_component_at P psf_a psf_b amp x y sx sy t xmin ymin :
  to_component P psf_a psf_b (mkComp amp (x - 1 - xmin) (y - 1 - ymin) (sx * FWHM2CC) (sy * FWHM2CC) t) xmin ymin =
  finish_component (pix2sky_ellipse P x y sx sy t) amp (amp * sx * sy * PI / (psf_a * psf_b * PI)).
Proof.
  unfold to_component, sky_ellipse. cbn [c_amp c_xo c_yo c_sx c_sy c_theta].
  destruct (rtc_pix_eq (x - 1 - xmin) (y - 1 - ymin) xmin ymin) as [-> ->].
  rewrite rtc_ellipse_args_eq, rtc_peak_eq, rtc_int_flux_eq, beamarea_pix_eq. unfold t5_1, t5_2, t5_3, t5_4, t5_5. cbn [fst snd].
  rewrite !FWHM_roundtrip. f_equal. f_equal; ring.
Qed.
Lemma finish_canon k1 k2 k3 k4 k5 peak flux :
  finish_component (k1, k2, k3, k4, k5) peak flux =
  let f := canon (k3 * 3600) (k4 * 3600) k5 in
  mkComponent (if Rltb k1 0 then k1 + 360 else k1) k2 peak (fst (fst f)) (snd (fst f)) (snd f) flux.
Proof.
  unfold finish_component, canon, t5_1, t5_2, t5_3, t5_4, t5_5. cbn [fst snd].
  destruct rtc_factor_eq as [-> ->]. destruct (rtc_ra_wrap_eq k1) as [-> ->]. reflexivity.
Qed.
Lemma finish_keep ra dec a b pa peak flux : 0 <= ra -> b <= a -> -90 < pa <= 90 ->
  finish_component (ra, dec, a, b, pa) peak flux = mkComponent ra dec peak (a * 3600) (b * 3600) pa flux.
Proof.
  intros Hra Hab Hpa. rewrite finish_canon. cbv zeta. rewrite canon_keep, pa_limit_id, (proj2 (Rltb_false _ _)) by lra. reflexivity.
Qed.

Lemma major_end_polar (c m : R * R) :
  major_end (fst c) (snd c) (hypot (fst m - fst c) (snd m - snd c)) (deg (atan2 (snd m - snd c) (fst m - fst c))) = m.
Proof.
  unfold major_end. rewrite rad_deg. destruct (atan2_polar_dec (fst m - fst c) (snd m - snd c)) as [-> ->].
  rewrite (surjective_pairing m) at 3. f_equal; ring.
Qed.

(* the sky point that pix2sky_ellipse obtains for the end of the fitted minor axis, and the minor axis (degrees) it derives *)
Definition minor_sky_point (P S : R * R -> R * R) (s : source) : R * R :=
  let e := pixel_ellipse S s in P (minor_end (t5_1 e) (t5_2 e) (t5_4 e) (t5_5 e)).
Definition minor_raw (P S : R * R -> R * R) (s : source) : R :=
  let q := minor_sky_point P S s in
  gcd (s_ra s) (s_dec s) (fst q) (snd q) * Rabs (cos (rad (s_pa s - (bear (s_ra s) (s_dec s) (fst q) (snd q) - 90)))).

Definition regular_source (s : source) : Prop :=
  0 <= s_ra s /\ -90 < s_dec s < 90 /\ 0 < s_b s <= s_a s /\ s_a s / 3600 < 180 /\ -90 < s_pa s <= 90 /\
  -90 < snd (translate (s_ra s) (s_dec s) (s_a s / 3600) (s_pa s)) < 90.
Definition wcs_roundtrip_at (P S : R * R -> R * R) (s : source) : Prop :=
  P (S (s_ra s, s_dec s)) = (s_ra s, s_dec s) /\
  P (S (translate (s_ra s) (s_dec s) (s_a s / 3600) (s_pa s))) = translate (s_ra s) (s_dec s) (s_a s / 3600) (s_pa s).
(* the WCS is conformal and point-symmetric at the source: the pixel images of the two sky axes are perpendicular, and the
   reflection through the centre of the pixel image of the minor-axis end (position angle pa - 90) is the pixel of the
   opposite minor-axis end (position angle pa + 90) *)
Definition conformal_at (P S : R * R -> R * R) (s : source) : Prop :=
  let c := S (s_ra s, s_dec s) in
  let m := S (translate (s_ra s) (s_dec s) (s_a s / 3600) (s_pa s)) in
  let n := S (translate (s_ra s) (s_dec s) (s_b s / 3600) (s_pa s - 90)) in
  minor_defect_pix c m n = 0 /\
  P (2 * fst c - fst n, 2 * snd c - snd n) = translate (s_ra s) (s_dec s) (s_b s / 3600) (s_pa s + 90) /\
  -90 < snd (translate (s_ra s) (s_dec s) (s_b s / 3600) (s_pa s + 90)) < 90.
(* one linear scale (pixels per degree) at the source and at the reference pixel (where the pixel beam is computed) *)
Definition uniform_scale (S : R * R -> R * R) (s : source) (psf_a psf_b bmaj bmin : R) : Prop :=
  exists scale, 0 < scale /\ t5_3 (pixel_ellipse S s) = scale * (s_a s / 3600) /\ t5_4 (pixel_ellipse S s) = scale * (s_b s / 3600) /\
                psf_a = scale * bmaj /\ psf_b = scale * bmin /\ 0 < bmaj /\ 0 < bmin.

(* the true parameters in island coordinates: the pixel ellipse of the source, 0-based, standard deviations *)
Lemma params_of_render S s xmin ymin :
  params_of (render S s) xmin ymin =
  let e := pixel_ellipse S s in
  mkComp (s_peak s) (t5_1 e - 1 - xmin) (t5_2 e - 1 - ymin) (t5_3 e * FWHM2CC) (t5_4 e * FWHM2CC) (t5_5 e).
Proof. reflexivity. Qed.

Lemma injected_of_ellipse P S psf_a psf_b bmaj bmin s xmin ymin :
  (let e := pixel_ellipse S s in
   pix2sky_ellipse P (t5_1 e) (t5_2 e) (t5_3 e) (t5_4 e) (t5_5 e) = (s_ra s, s_dec s, s_a s / 3600, s_b s / 3600, s_pa s)) ->
  0 <= s_ra s -> s_b s <= s_a s -> -90 < s_pa s <= 90 ->
  uniform_scale S s psf_a psf_b bmaj bmin ->
  to_component P psf_a psf_b (params_of (render S s) xmin ymin) xmin ymin = injected bmaj bmin s.
Proof.
  intros HE Hra Hab Hpa (scale & Hk & Ha & Hb & -> & -> & Hbj & Hbn). cbv zeta in HE.
  rewrite params_of_render. cbv zeta. rewrite to_component_at, HE, finish_keep by lra. rewrite Ha, Hb.
  unfold injected, injected_int_flux. pose proof PI_RGT_0. f_equal; field; repeat split; lra.
Qed.

Section Inverse.
  Variables P S : R * R -> R * R.
  Variables psf_a psf_b bmaj bmin : R.
  Variable s : source.
  Variables xmin ymin : R.
  Let ra := s_ra s.  Let dec := s_dec s.  Let a := s_a s / 3600.  Let b := s_b s / 3600.  Let pa := s_pa s.
  Let c := S (ra, dec).
  Let m := S (translate ra dec a pa).
  Let n := S (translate ra dec b (pa - 90)).
  Let sxF := hypot (fst c - fst m) (snd c - snd m).
  Let theta := atan2 (snd m - snd c) (fst m - fst c).
  Let syF := hypot (fst c - fst n) (snd c - snd n) * Rabs (cos (minor_defect_pix c m n)).
  Let q := minor_sky_point P S s.
  Let truth := params_of (render S s) xmin ymin.

  Lemma pixel_ellipse_eq : pixel_ellipse S s = (fst c, snd c, sxF, syF, deg theta).
  Proof. unfold pixel_ellipse. rewrite sky2pix_ellipse_eq. reflexivity. Qed.
  Lemma truth_eq : truth = mkComp (s_peak s) (fst c - 1 - xmin) (snd c - 1 - ymin) (sxF * FWHM2CC) (syF * FWHM2CC) (deg theta).
  Proof. unfold truth, params_of, render. rewrite pixel_ellipse_eq. reflexivity. Qed.
  Lemma q_eq : q = P (minor_end (fst c) (snd c) syF (deg theta)).
  Proof. unfold q, minor_sky_point. rewrite pixel_ellipse_eq. reflexivity. Qed.

  Hypothesis Hreg : regular_source s.
  Hypothesis Hwcs : wcs_roundtrip_at P S s.

  Lemma pix2sky_truth : pix2sky_ellipse P (fst c) (snd c) sxF syF (deg theta) = (ra, dec, a, minor_raw P S s, pa).
  Proof.
    destruct Hreg as (_ & Hdec & Hab & Ha & Hpa & Hend). destruct Hwcs as (Hc & Hm). fold ra dec a pa in Hdec, Ha, Hpa, Hend, Hc, Hm.
    assert (Hm' : major_end (fst c) (snd c) sxF (deg theta) = m) by (unfold sxF; rewrite hypot_flip; apply major_end_polar).
    rewrite (surjective_pairing (S (ra, dec))) in Hc. fold c in Hc.
    rewrite pix2sky_ellipse_eq. cbv zeta. rewrite Hm', Hc. unfold m. rewrite Hm. cbn [fst snd].
    rewrite <- q_eq. unfold minor_raw. fold q ra dec pa.
    rewrite translate_gcd, translate_bear by (assumption || (unfold a in *; lra)). reflexivity.
  Qed.

  (* premise of the next two lemmas: fix_shape does not swap, i.e. the minor axis obtained from the sky point q does not
     exceed the injected major axis *)
  Lemma to_component_truth : minor_raw P S s * 3600 <= s_a s ->
    to_component P psf_a psf_b truth xmin ymin =
    mkComponent ra dec (s_peak s) (s_a s) (minor_raw P S s * 3600) pa (s_peak s * sxF * syF * PI / (psf_a * psf_b * PI)).
  Proof.
    intros Hle. destruct Hreg as (Hra & _ & _ & _ & Hpa & _).
    rewrite truth_eq, to_component_at, pix2sky_truth, finish_keep by (assumption || (unfold a; lra)).
    f_equal. unfold a. field.
  Qed.

  Lemma minor_bound : minor_raw P S s * 3600 <= s_a s ->
    let k := to_component P psf_a psf_b truth xmin ymin in
    let dq := gcd ra dec (fst q) (snd q) * 3600 in
    let defect := pa - (bear ra dec (fst q) (snd q) - 90) in
    k_b k = dq * Rabs (cos (rad defect)) /\ k_b k <= dq /\ dq - k_b k = dq * (1 - Rabs (cos (rad defect))).
  Proof.
    intros Hle. cbv zeta. rewrite (to_component_truth Hle). cbn [k_b]. unfold minor_raw. fold q ra dec pa.
    pose proof (proj1 (gcd_range ra dec (fst q) (snd q))) as Hg.
    set (g := gcd ra dec (fst q) (snd q)) in *. set (t := rad _).
    pose proof (Rabs_pos (cos t)). assert (Rabs (cos t) <= 1) by (apply Rabs_le, COS_bound).
    split; [ring|]. split; [nra|ring].
  Qed.

  Hypothesis Hconf : conformal_at P S s.

  Lemma minor_end_truth : minor_end (fst c) (snd c) syF (deg theta) = (2 * fst c - fst n, 2 * snd c - snd n).
  Proof.
    destruct Hconf as (Hperp & _). fold ra dec a b pa c m n in Hperp.
    assert (Ht : theta = atan2 (snd n - snd c) (fst n - fst c) - PI / 2)
      by (unfold minor_defect_pix in Hperp; fold theta in Hperp; lra).
    unfold minor_end, syF. rewrite Hperp, cos_0, Rabs_R1, Rmult_1_r, cos_rad_m90, sin_rad_m90, rad_deg, hypot_flip.
    rewrite Ht, cos_minus, sin_minus, cos_PI2, sin_PI2.
    destruct (atan2_polar_dec (fst n - fst c) (snd n - snd c)) as [Hc Hs]. f_equal; lra.
  Qed.

  Lemma minor_raw_conformal : minor_raw P S s = b.
  Proof.
    destruct Hreg as (_ & Hdec & Hab & Ha & Hpa & _). destruct Hconf as (_ & Hsym & Hend).
    unfold minor_raw. fold q ra dec pa. rewrite q_eq, minor_end_truth. unfold c, n, ra, dec, b, pa. rewrite Hsym.
    apply minor_perp; [lra.. | exists 0%Z; lra].
  Qed.

  Hypothesis Hscale : uniform_scale S s psf_a psf_b bmaj bmin.

  Lemma conversion_inverse_conformal : to_component P psf_a psf_b truth xmin ymin = injected bmaj bmin s.
  Proof.
    destruct Hreg as (Hra & _ & Hab & _ & Hpa & _). apply injected_of_ellipse; try assumption || lra.
    cbv zeta. rewrite pixel_ellipse_eq. unfold t5_1, t5_2, t5_3, t5_4, t5_5. cbn [fst snd].
    rewrite pix2sky_truth, minor_raw_conformal. reflexivity.
  Qed.
End Inverse.

Lemma minor_is_major x y s t : minor_end x y s t = major_end x y s (t - 90).
Proof. reflexivity. Qed.
Lemma major_end_period x y s t : major_end x y s (t + 360) = major_end x y s t.
Proof. unfold major_end. replace (t + 360) with (t + 360 * 1) by ring. rewrite cos_rad_period, sin_rad_period. reflexivity. Qed.
Lemma pix2sky_period P x y sx sy theta :
  pix2sky_ellipse P x y sx sy (theta + 360) = pix2sky_ellipse P x y sx sy theta.
Proof.
  rewrite !pix2sky_ellipse_eq. rewrite !minor_is_major.
  replace (theta + 360 - 90) with (theta - 90 + 360) by ring. rewrite !major_end_period. reflexivity.
Qed.
Lemma c01_theta_period P psf_a psf_b c xmin ymin :
  to_component P psf_a psf_b (mkComp (c_amp c) (c_xo c) (c_yo c) (c_sx c) (c_sy c) (c_theta c + 360)) xmin ymin =
  to_component P psf_a psf_b c xmin ymin.
Proof.
  unfold to_component, sky_ellipse. cbn [c_amp c_xo c_yo c_sx c_sy c_theta].
  rewrite !rtc_ellipse_args_eq. unfold t5_1, t5_2, t5_3, t5_4, t5_5. cbn [fst snd]. rewrite pix2sky_period. reflexivity.
Qed.

(* a bearing as bear returns it *)
Definition nb (phi : R) : R := if Rle_dec phi 180 then phi else phi - 360.
Lemma translate_bear_any ra dec r phi : -90 < dec < 90 -> 0 < r < 180 -> -180 < phi < 360 ->
  let q := translate ra dec r phi in -90 < snd q < 90 ->
  gcd ra dec (fst q) (snd q) = r /\ bear ra dec (fst q) (snd q) = nb phi.
Proof.
  intros Hdec Hr Hphi q Hq. destruct (c17_translate ra dec r phi Hr Hdec Hq) as (Hg & Hb1 & Hb2).
  split; [exact Hg|]. unfold nb. destruct (Rle_dec phi 180); [apply Hb1|apply Hb2]; lra.
Qed.
Lemma nb_id phi : phi <= 180 -> nb phi = phi.
Proof. intros H. unfold nb. destruct (Rle_dec phi 180); [reflexivity | contradiction]. Qed.

(* what pix2sky_ellipse returns when the two queried pixels are known sky offsets, perpendicular on the sky *)
Lemma pix2sky_perp P x y ra dec s1 s2 t r1 r2 phi1 phi2 : P (x, y) = (ra, dec) -> -90 < dec < 90 ->
  P (major_end x y s1 t) = translate ra dec r1 phi1 -> P (major_end x y s2 (t - 90)) = translate ra dec r2 phi2 ->
  0 < r1 < 180 -> 0 < r2 < 180 -> -180 < phi1 < 360 ->
  -90 < snd (translate ra dec r1 phi1) < 90 -> -90 < snd (translate ra dec r2 phi2) < 90 ->
  phi2 = phi1 + 90 \/ phi2 = phi1 - 270 ->
  pix2sky_ellipse P x y s1 s2 t = (ra, dec, r1, r2, nb phi1).
Proof.
  intros Hc Hdec H1 H2 Hr1 Hr2 Hp1 Hd1 Hd2 Hq. rewrite pix2sky_ellipse_eq. cbv zeta. rewrite minor_is_major, Hc, H1, H2. cbn [fst snd].
  destruct (translate_bear_any ra dec r1 phi1 Hdec Hr1 Hp1 Hd1) as [-> ->].
  rewrite minor_perp; [reflexivity | assumption.. |].
  (* remaining premise of minor_perp: phi2 = nb phi1 + 90 + 180 k for a whole number k *)
  unfold nb. destruct (Rle_dec phi1 180) as [Hle|Hgt], Hq as [-> | ->].
  - exists 0%Z. lra.
  - exists (-2)%Z. lra.
  - exists 2%Z. lra.
  - exists 0%Z. lra.
Qed.

(* a WCS that is, at this pixel, conformal and point-symmetric on the four ends of the axes of the pixel ellipse
   (sxF, syF, theta): they are the ends of the axes of the sky ellipse (a, b, pa) *)
Definition locally_conformal (P : R * R -> R * R) (x y sxF syF theta ra dec a b pa : R) : Prop :=
  P (x, y) = (ra, dec) /\ -90 < dec < 90 /\
  P (major_end x y sxF theta) = translate ra dec a pa /\
  P (major_end x y sxF (theta + 180)) = translate ra dec a (pa + 180) /\
  P (major_end x y syF (theta - 90)) = translate ra dec b (pa + 90) /\
  P (major_end x y syF (theta + 90)) = translate ra dec b (pa - 90) /\
  0 < a < 180 /\ 0 < b < 180 /\ -90 < pa <= 90 /\
  -90 < snd (translate ra dec a pa) < 90 /\ -90 < snd (translate ra dec a (pa + 180)) < 90 /\
  -90 < snd (translate ra dec b (pa + 90)) < 90 /\ -90 < snd (translate ra dec b (pa - 90)) < 90.

Section Conformal.
  Variable P : R * R -> R * R.
  Variables x y sxF syF theta ra dec a b pa : R.
  Hypothesis Hconf : locally_conformal P x y sxF syF theta ra dec a b pa.

  (* the sky ellipse of each of the four parameterisations of the pixel ellipse *)
  Lemma p2s_refl : pix2sky_ellipse P x y sxF syF theta = (ra, dec, a, b, pa).
  Proof.
    destruct Hconf as (Hc & Hdec & E0 & _ & E3 & _ & Ha & Hb & Hpa & D0 & _ & D3 & _).
    rewrite (pix2sky_perp P x y ra dec sxF syF theta a b pa (pa + 90)), nb_id by (assumption || lra). reflexivity.
  Qed.
  Lemma p2s_half : pix2sky_ellipse P x y sxF syF (theta + 180) = (ra, dec, a, b, nb (pa + 180)).
  Proof.
    destruct Hconf as (Hc & Hdec & _ & E2 & _ & E1 & Ha & Hb & Hpa & _ & D2 & _ & D1).
    replace (theta + 90) with (theta + 180 - 90) in E1 by ring.
    apply (pix2sky_perp P x y ra dec sxF syF (theta + 180) a b (pa + 180) (pa - 90)); assumption || lra.
  Qed.
  Lemma p2s_swap_up : pix2sky_ellipse P x y syF sxF (theta + 90) = (ra, dec, b, a, pa - 90).
  Proof.
    destruct Hconf as (Hc & Hdec & E0 & _ & _ & E1 & Ha & Hb & Hpa & D0 & _ & _ & D1).
    replace theta with (theta + 90 - 90) in E0 by ring.
    rewrite (pix2sky_perp P x y ra dec syF sxF (theta + 90) b a (pa - 90) pa), nb_id by (assumption || lra). reflexivity.
  Qed.
  Lemma p2s_swap_down : pix2sky_ellipse P x y syF sxF (theta - 90) = (ra, dec, b, a, pa + 90).
  Proof.
    destruct Hconf as (Hc & Hdec & _ & E2 & E3 & _ & Ha & Hb & Hpa & _ & D2 & D3 & _).
    replace (theta + 180) with (theta - 90 - 90 + 360) in E2 by ring. rewrite major_end_period in E2.
    rewrite (pix2sky_perp P x y ra dec syF sxF (theta - 90) b a (pa + 90) (pa + 180)), nb_id by (assumption || lra). reflexivity.
  Qed.

  Variables psf_a psf_b xmin ymin amp : R.
  Hypothesis Hab : b < a.
  Let c0 := mkComp amp (x - 1 - xmin) (y - 1 - ymin) (sxF * FWHM2CC) (syF * FWHM2CC) theta.

  Lemma same_gaussian_same_component r : same_gaussian c0 r ->
    to_component P psf_a psf_b r xmin ymin = to_component P psf_a psf_b c0 xmin ymin.
  Proof.
    assert (Hpa : -90 < pa <= 90) by apply Hconf.
    intros Hr. destruct Hr; unfold c0; cbn [c_amp c_xo c_yo c_sx c_sy c_theta]; rewrite ?to_component_at, p2s_refl.
    - reflexivity.
    - rewrite p2s_half, !finish_canon. cbv zeta. unfold nb. destruct (Rle_dec (pa + 180) 180).
      + rewrite canon_half by lra. reflexivity.
      + rewrite <- (canon_half (a * 3600) (b * 3600) (pa + 180 - 360)) by lra.
        replace (pa + 180 - 360 + 180) with pa by ring. reflexivity.
    - rewrite p2s_swap_up, !finish_canon. cbv zeta. rewrite canon_swap_down by lra.
      rewrite (Rmult_assoc amp syF), (Rmult_comm syF), <- Rmult_assoc. reflexivity.
    - rewrite p2s_swap_down, !finish_canon. cbv zeta. rewrite canon_swap_up by lra.
      rewrite (Rmult_assoc amp syF), (Rmult_comm syF), <- Rmult_assoc. reflexivity.
  Qed.
End Conformal.
Arguments p2s_refl P {x y sxF syF theta ra dec a b pa} Hconf.
Arguments same_gaussian_same_component P {x y sxF syF theta ra dec a b pa} Hconf psf_a psf_b xmin ymin amp Hab r _.

(* characterising lemmas of the generated Gaussian (the only ones here that look inside Gen/Gauss.v) *)
Definition qform (dx dy sx sy theta : R) : R :=
  (dx * cos (rad theta) + dy * sin (rad theta)) ^ 2 / sx ^ 2 + (dx * sin (rad theta) - dy * cos (rad theta)) ^ 2 / sy ^ 2.
Lemma gauss_eq x y amp xo yo sx sy theta :
  gauss x y amp xo yo sx sy theta = amp * exp (- qform (x - xo) (y - yo) sx sy theta / 2).
Proof. unfold gauss, qform. cbv zeta. do 2 f_equal. lra. Qed.
Local Opaque gauss.
Lemma gauss_shift c xmin ymin x y : gauss_c (params_of c xmin ymin) (x - xmin) (y - ymin) = gauss_c c x y.
Proof.
  unfold gauss_c, params_of. cbn [c_amp c_xo c_yo c_sx c_sy c_theta]. rewrite !gauss_eq.
  replace (x - xmin - (c_xo c - xmin)) with (x - c_xo c) by ring.
  replace (y - ymin - (c_yo c - ymin)) with (y - c_yo c) by ring. reflexivity.
Qed.
Lemma model_shift cs xmin ymin x y :
  model (map (fun c => params_of c xmin ymin) cs) (x - xmin) (y - ymin) = model cs x y.
Proof.
  induction cs as [|c r IH]; [reflexivity|]. unfold model in *. cbn [map fold_right]. rewrite IH, gauss_shift. reflexivity.
Qed.
Lemma lin_residual_zero pts f :
  (forall x y d w, In (x, y, d, w) pts -> d = f x y) -> lin_residual pts f = 0.
Proof.
  induction pts as [|[[[x y] d] w] r IH]; intros H; [reflexivity|].
  cbn [lin_residual fold_right]. fold (lin_residual r f). rewrite IH by (intros x0 y0 d0 w0 H0; apply (H x0 y0 d0 w0); right; assumption).
  rewrite (H x y d w) by (left; reflexivity). ring.
Qed.
(* island pixels (i, j) with weights w (any mask, any row of any whitening matrix / noise scaling); the island holds the
   image at (i + xmin, j + ymin); the model is evaluated in island coordinates *)
Definition island_pts (S : R * R -> R * R) (srcs : list source) (xmin ymin : R) (pix : list (R * R * R)) : list (R * R * R * R) :=
  map (fun p => let '(i, j, w) := p in (i, j, image_of S srcs (i + xmin) (j + ymin), w)) pix.
Lemma island_data S srcs xmin ymin pix x y d w : In (x, y, d, w) (island_pts S srcs xmin ymin pix) ->
  d = model (map (fun s => params_of (render S s) xmin ymin) srcs) x y.
Proof.
  intros Hin. unfold island_pts in Hin. apply in_map_iff in Hin.
  destruct Hin as ([[i j] w'] & Heq & _). injection Heq as <- <- <- <-.
  unfold image_of. rewrite <- (model_shift (map (render S) srcs) xmin ymin (i + xmin) (j + ymin)).
  rewrite map_map. f_equal; ring.
Qed.
Lemma truth_zero_residual S srcs xmin ymin pix :
  lin_residual (island_pts S srcs xmin ymin pix) (model (map (fun s => params_of (render S s) xmin ymin) srcs)) = 0.
Proof. apply lin_residual_zero. intros x y d w. apply island_data. Qed.

Lemma sq_div_nonneg u s : s <> 0 -> 0 <= u ^ 2 / s ^ 2.
Proof. intros Hs. replace (u ^ 2 / s ^ 2) with ((u / s) ^ 2) by (field; exact Hs). apply pow2_ge_0. Qed.
Lemma qform_nonneg dx dy sx sy theta : sx <> 0 -> sy <> 0 -> 0 <= qform dx dy sx sy theta.
Proof. intros Hx Hy. unfold qform. apply Rplus_le_le_0_compat; apply sq_div_nonneg; assumption. Qed.
(* the sub-pixel attenuation: value of the unit-amplitude Gaussian at the peak pixel *)
Definition atten (c : comp) (px py : R) : R := exp (- qform (px - c_xo c) (py - c_yo c) (c_sx c) (c_sy c) (c_theta c) / 2).
Lemma atten_range c px py : c_sx c <> 0 -> c_sy c <> 0 -> 0 < atten c px py <= 1.
Proof.
  intros Hx Hy. unfold atten. split; [apply exp_pos|].
  pose proof (qform_nonneg (px - c_xo c) (py - c_yo c) (c_sx c) (c_sy c) (c_theta c) Hx Hy) as Hq.
  rewrite <- exp_0. destruct Hq as [Hq| <-]; [left; apply exp_increasing; lra | right; f_equal; lra].
Qed.
Lemma peak_pixel_value c px py : gauss_c c px py = c_amp c * atten c px py.
Proof. unfold gauss_c, atten. apply gauss_eq. Qed.

Lemma in_box_eq u c : 0 < u_pk u ->
  (in_box u c <->
   (c095 * Rmin (u_oc u * u_rms u) (u_pk u) <= c_amp c <= u_pk u * c105 + u_ic u * u_rms u) /\
   (u_px u - 1 / 2 * hypot (u_ba u) (u_bb u) <= c_xo c <= u_px u + 1 / 2 * hypot (u_ba u) (u_bb u)) /\
   (u_py u - 1 / 2 * hypot (u_ba u) (u_bb u) <= c_yo c <= u_py u + 1 / 2 * hypot (u_ba u) (u_bb u)) /\
   (u_bb u * FWHM2CC * c08 <= c_sx c <= size_cap (u_ba u) (u_bb u) (u_xsize u) (u_ysize u)) /\
   (u_bb u * FWHM2CC * c08 <= c_sy c <= size_cap (u_ba u) (u_bb u) (u_xsize u) (u_ysize u))).
Proof.
  intros Hpk. unfold in_box, amp_bounds. rewrite amp_is_positive_eq, (proj2 (Rltb_true _ _)) by exact Hpk.
  destruct (amp_pos_bounds_eq (u_pk u) (u_rms u) (u_ic u) (u_oc u)) as [-> ->].
  destruct (pos_bounds_eq (u_px u) (u_py u) (u_ba u) (u_bb u) (u_xsize u) (u_ysize u)) as [-> ->].
  destruct (shape_bounds_eq (u_px u) (u_py u) (u_ba u) (u_bb u) (u_xsize u) (u_ysize u)) as [-> ->]. reflexivity.
Qed.

Lemma scale_down x k : 0 <= x -> k <= 1 -> x * k <= x.
Proof. intros Hx Hk. nra. Qed.
Lemma scale_up x k : 0 <= x -> 1 <= k -> x <= x * k.
Proof. intros Hx Hk. nra. Qed.

(* what the start and the truth have in common: the lower amplitude bound admits every value from the peak pixel upwards, the
   shape box reaches from below the beam's minor axis up to the start value and to the island-size cap *)
Lemma amp_min_le pk rms oc v : 0 <= rms -> 0 <= oc -> 0 < pk <= v -> c095 * Rmin (oc * rms) pk <= v.
Proof.
  intros Hrms Hoc Hv. pose proof c095_val as H95. pose proof (Rmin_r (oc * rms) pk) as Hr.
  assert (H0 : 0 <= Rmin (oc * rms) pk) by (apply Rmin_glb; [apply Rmult_le_pos; assumption | lra]).
  assert (c095 * Rmin (oc * rms) pk <= Rmin (oc * rms) pk) by (rewrite Rmult_comm; apply scale_down; lra). lra.
Qed.
Lemma shape_floor bb : 0 <= bb -> bb * FWHM2CC * c08 <= bb * FWHM2CC.
Proof. intros Hbb. pose proof FWHM2CC_pos. pose proof c08_val. apply scale_down; [apply Rmult_le_pos|]; lra. Qed.
Lemma sx_start_ge ba bb : 0 <= bb -> bb * FWHM2CC <= sx_start ba bb.
Proof.
  intros Hbb. pose proof FWHM2CC_pos. apply Rle_trans with (bb * FWHM2CC * c101); [|apply Rmax_r].
  pose proof c101_val. apply scale_up; [apply Rmult_le_pos|]; lra.
Qed.
Lemma size_cap_ge ba bb xsize ysize : 0 <= bb ->
  (Rmax xsize ysize + 1) * sqrt 2 * FWHM2CC <= size_cap ba bb xsize ysize /\ sx_start ba bb <= size_cap ba bb xsize ysize.
Proof.
  intros Hbb. split; [apply Rmax_l|]. apply Rle_trans with (sx_start ba bb * c11); [|apply Rmax_r].
  pose proof (sx_start_ge ba bb Hbb). pose proof FWHM2CC_pos.
  pose proof c11_val. apply scale_up; [apply Rle_trans with (bb * FWHM2CC); [apply Rmult_le_pos|]|]; lra.
Qed.

Lemma start_in_box u bpa : 0 < u_pk u -> 0 <= u_rms u -> 0 <= u_ic u -> 0 <= u_oc u -> 0 <= u_bb u ->
  in_box u (start_of u bpa).
Proof.
  intros Hpk Hrms Hic Hoc Hbb. apply in_box_eq; [exact Hpk|]. unfold start_of. rewrite shape_init_eq. cbn [c_amp c_xo c_yo c_sx c_sy fst snd].
  pose proof (amp_min_le (u_pk u) (u_rms u) (u_oc u) (u_pk u) Hrms Hoc) as Hlow.
  pose proof c105_val as H105. assert (Hup : u_pk u <= u_pk u * c105) by (apply scale_up; lra).
  pose proof (Rmult_le_pos _ _ Hic Hrms) as Hclip.
  pose proof (hypot_nonneg (u_ba u) (u_bb u)) as Hh.
  pose proof (shape_floor (u_bb u) Hbb) as Hfloor. pose proof (sx_start_ge (u_ba u) (u_bb u) Hbb) as Hst.
  destruct (size_cap_ge (u_ba u) (u_bb u) (u_xsize u) (u_ysize u) Hbb) as [_ Hcap].
  repeat split; lra.
Qed.

Lemma qform_bounds dx dy sx sy theta : 0 < sy <= sx ->
  dx * dx + dy * dy <= sx ^ 2 * qform dx dy sx sy theta /\ sy ^ 2 * qform dx dy sx sy theta <= dx * dx + dy * dy.
Proof.
  intros [Hy Hyx]. unfold qform. pose proof (sin2_cos2 (rad theta)) as Hsc. unfold Rsqr in Hsc.
  set (s := sin (rad theta)) in *. set (c := cos (rad theta)) in *.
  set (u := dx * c + dy * s). set (v := dx * s - dy * c).
  replace (dx * dx + dy * dy) with (u ^ 2 + v ^ 2)
    by (unfold u, v; transitivity ((dx * dx + dy * dy) * (s * s + c * c)); [ring | rewrite Hsc; ring]).
  assert (Hp : 0 <= u ^ 2 / sx ^ 2) by (apply sq_div_nonneg; lra). assert (Hr : 0 <= v ^ 2 / sy ^ 2) by (apply sq_div_nonneg; lra).
  assert (Hu : u ^ 2 = sx ^ 2 * (u ^ 2 / sx ^ 2)) by (field; lra). assert (Hv : v ^ 2 = sy ^ 2 * (v ^ 2 / sy ^ 2)) by (field; lra).
  set (p := u ^ 2 / sx ^ 2) in *. set (r := v ^ 2 / sy ^ 2) in *. rewrite Hu, Hv. clearbody p r. clear Hu Hv Hsc.
  assert (sy ^ 2 <= sx ^ 2) by nra. split; nra.
Qed.
Lemma brighter_closer c kx ky px py : 0 < c_amp c -> 0 < c_sy c <= c_sx c -> gauss_c c kx ky <= gauss_c c px py ->
  c_sy c ^ 2 * ((px - c_xo c) * (px - c_xo c) + (py - c_yo c) * (py - c_yo c)) <=
  c_sx c ^ 2 * ((kx - c_xo c) * (kx - c_xo c) + (ky - c_yo c) * (ky - c_yo c)).
Proof.
  intros Ha Hs H. unfold gauss_c in H. rewrite !gauss_eq in H.
  destruct (qform_bounds (kx - c_xo c) (ky - c_yo c) (c_sx c) (c_sy c) (c_theta c) Hs) as [_ Hk].
  destruct (qform_bounds (px - c_xo c) (py - c_yo c) (c_sx c) (c_sy c) (c_theta c) Hs) as [Hp _].
  set (Ek := qform (kx - c_xo c) _ _ _ _) in *. set (Ep := qform (px - c_xo c) _ _ _ _) in *.
  assert (HE : Ep <= Ek).
  { apply Rnot_lt_le. intros Hlt. apply Rmult_le_reg_l in H; [|exact Ha]. apply (Rle_not_lt _ _ H), exp_increasing. lra. }
  pose proof (pow2_ge_0 (c_sx c)) as Hx2. pose proof (pow2_ge_0 (c_sy c)) as Hy2.
  (* sy^2 |p - o|^2 <= sy^2 sx^2 Ep <= sx^2 sy^2 Ek <= sx^2 |k - o|^2 *)
  apply Rle_trans with (c_sy c ^ 2 * (c_sx c ^ 2 * Ep)); [apply Rmult_le_compat_l; assumption|].
  apply Rle_trans with (c_sx c ^ 2 * (c_sy c ^ 2 * Ek)); [|apply Rmult_le_compat_l; assumption].
  rewrite <- !Rmult_assoc, (Rmult_comm (c_sx c ^ 2)). apply Rmult_le_compat_l; [apply Rmult_le_pos; assumption | exact HE].
Qed.
Lemma half_diagonal dx dy h : 0 <= h -> 4 * (dx * dx + dy * dy) <= h * h -> - (h / 2) <= dx <= h / 2.
Proof. intros Hh H. split; nra. Qed.

(* position: if the peak pixel is at least as bright as a pixel within half a pixel of the centre (there always is
   one) then it lies within (sx / sy) / sqrt 2 of the centre, hence inside the position box as soon as
   2 sx^2 <= sy^2 (ba^2 + bb^2) *)
Lemma position_in_box c kx ky px py ba bb : 0 < c_amp c -> 0 < c_sy c <= c_sx c ->
  Rabs (kx - c_xo c) <= 1 / 2 -> Rabs (ky - c_yo c) <= 1 / 2 ->
  gauss_c c kx ky <= gauss_c c px py ->
  2 * c_sx c ^ 2 <= c_sy c ^ 2 * (ba ^ 2 + bb ^ 2) ->
  - (hypot ba bb / 2) <= px - c_xo c <= hypot ba bb / 2 /\ - (hypot ba bb / 2) <= py - c_yo c <= hypot ba bb / 2.
Proof.
  intros Ha Hs Hkx Hky Hpeak Hratio. pose proof (brighter_closer c kx ky px py Ha Hs Hpeak) as HE.
  apply Rabs_le_inv in Hkx. apply Rabs_le_inv in Hky.
  pose proof (hypot_sqr ba bb) as Hh2. pose proof (hypot_nonneg ba bb) as Hh0.
  set (dx := px - c_xo c) in *. set (dy := py - c_yo c) in *. set (ex := kx - c_xo c) in *. set (ey := ky - c_yo c) in *.
  assert (Hk : c_sx c ^ 2 * (ex * ex + ey * ey) <= c_sx c ^ 2 * (1 / 2)) by (apply Rmult_le_compat_l; [apply pow2_ge_0 | nra]).
  assert (H4 : 4 * (dx * dx + dy * dy) <= hypot ba bb * hypot ba bb).
  { apply (Rmult_le_reg_l (c_sy c ^ 2)); [apply pow_lt; lra|]. rewrite Hh2. lra. }
  split; [apply (half_diagonal dx dy) | apply (half_diagonal dy dx)]; lra.
Qed.

(* the box contains the truth EXACTLY WHEN  amp * (1 - 1.05 g) <= innerclip * rms,  g = atten = peak pixel / true amplitude *)
Lemma c01_truth_within_bounds u c kx ky :
  0 < c_amp c -> 0 < c_sy c <= c_sx c -> 0 <= u_rms u -> 0 <= u_oc u -> 0 <= u_bb u ->
  (* the summit's peak pixel holds the noise-free source and is at least as bright as a pixel within half a pixel of the centre *)
  u_pk u = gauss_c c (u_px u) (u_py u) ->
  Rabs (kx - c_xo c) <= 1 / 2 -> Rabs (ky - c_yo c) <= 1 / 2 -> gauss_c c kx ky <= gauss_c c (u_px u) (u_py u) ->
  (* axis ratio against the sampling of the beam; at least as large as the beam; not longer than the island allows *)
  2 * c_sx c ^ 2 <= c_sy c ^ 2 * (u_ba u ^ 2 + u_bb u ^ 2) ->
  u_bb u * FWHM2CC <= c_sy c ->
  c_sx c <= (Rmax (u_xsize u) (u_ysize u) + 1) * sqrt 2 * FWHM2CC ->
  (in_box u c <-> c_amp c * (1 - c105 * atten c (u_px u) (u_py u)) <= u_ic u * u_rms u).
Proof.
  intros Ha Hs Hrms Hoc Hbb Hpk Hkx Hky Hpeak Hratio Hbeam Hcap.
  destruct (position_in_box c kx ky (u_px u) (u_py u) (u_ba u) (u_bb u) Ha Hs Hkx Hky Hpeak Hratio) as [Hx Hy].
  rewrite peak_pixel_value in Hpk.
  destruct (atten_range c (u_px u) (u_py u)) as [Hg0 Hg1]; [lra | lra |]. set (g := atten c (u_px u) (u_py u)) in *.
  assert (Hpos : 0 < u_pk u <= c_amp c) by (rewrite Hpk; split; [apply Rmult_lt_0_compat | apply scale_down]; lra).
  rewrite (in_box_eq u c (proj1 Hpos)).
  pose proof (amp_min_le (u_pk u) (u_rms u) (u_oc u) (c_amp c) Hrms Hoc Hpos) as Hlow.
  pose proof (shape_floor (u_bb u) Hbb) as Hfloor.
  destruct (size_cap_ge (u_ba u) (u_bb u) (u_xsize u) (u_ysize u) Hbb) as [Hm _].
  replace (c_amp c * (1 - c105 * g)) with (c_amp c - c105 * u_pk u) by (rewrite Hpk; ring).
  split; [intros ((_ & Hup) & _); lra | intros Hcond; repeat split; lra].
Qed.

(* the optimiser hypothesis of C01.  lmfit.minimize (MINPACK Levenberg-Marquardt) as a black box: start, box, residual vector
   as a function of the parameters -> fitted parameters.  full_rank res c : the Jacobian of res at c has full column rank. *)
Definition optimiser_finds_zero (minimize : comp -> (comp -> Prop) -> (comp -> list R) -> comp)
           (full_rank : (comp -> list R) -> comp -> Prop) : Prop :=
  forall (start : comp) (box : comp -> Prop) (res : comp -> list R) (truth : comp),
    box start -> box truth -> (forall e : R, In e (res truth) -> e = 0) -> full_rank res truth ->
    same_gaussian truth (minimize start box res).
(* the residual vector of an island that holds the injected source: one entry per row (mask, noise scaling, whitening) *)
Definition island_residual (S : R * R -> R * R) (s : source) (xmin ymin : R) (rows : list (list (R * R * R))) (c : comp) : list R :=
  map (fun pix => lin_residual (island_pts S (s :: nil) xmin ymin pix) (gauss_c c)) rows.
Definition summit_sane (u : summit) : Prop := 0 < u_pk u /\ 0 <= u_rms u /\ 0 <= u_ic u /\ 0 <= u_oc u /\ 0 <= u_bb u.

Section Recovery.
  Variables P S : R * R -> R * R.
  Variables psf_a psf_b bmaj bmin : R.
  (* the hypotheses of this section are those of Props/C01.C01_recovery with optimiser_finds_zero, island_residual (res),
     summit_sane (Hstart) and uniform_scale (scale, Hscale) written out *)
  Variable minimize : comp -> (comp -> Prop) -> (comp -> list R) -> comp.
  Variable full_rank : (comp -> list R) -> comp -> Prop.
  Hypothesis minimize_finds_zero : forall (start : comp) (box : comp -> Prop) (res : comp -> list R) (truth : comp),
    box start -> box truth -> (forall e, In e (res truth) -> e = 0) -> full_rank res truth ->
    same_gaussian truth (minimize start box res).

  Variable s : source.
  Variables xmin ymin : R.
  Let e := pixel_ellipse S s.
  Let truth := params_of (render S s) xmin ymin.

  Variable rows : list (list (R * R * R)).
  Let res (c : comp) : list R := map (fun pix => lin_residual (island_pts S (s :: nil) xmin ymin pix) (gauss_c c)) rows.

  Lemma residual_zero_at_truth : forall r, In r (res truth) -> r = 0.
  Proof.
    intros r Hin. unfold res in Hin. apply in_map_iff in Hin. destruct Hin as (pix & <- & _).
    apply lin_residual_zero. intros x y d w Hin. rewrite (island_data _ _ _ _ _ _ _ _ _ Hin).
    unfold model. cbn [map fold_right]. fold truth. ring.
  Qed.

  Variable u : summit.
  Variable bpa : R.
  Variable scale : R.
  Hypothesis Hstart : 0 < u_pk u /\ 0 <= u_rms u /\ 0 <= u_ic u /\ 0 <= u_oc u /\ 0 <= u_bb u.
  Hypothesis Hbox : in_box u truth.
  Hypothesis Hrank : full_rank res truth.
  Hypothesis Hconf : locally_conformal P (t5_1 e) (t5_2 e) (t5_3 e) (t5_4 e) (t5_5 e)
                                       (s_ra s) (s_dec s) (s_a s / 3600) (s_b s / 3600) (s_pa s).
  Hypothesis Hab : s_b s < s_a s.
  Hypothesis Hra : 0 <= s_ra s.
  Hypothesis Hscale : 0 < scale /\ t5_3 e = scale * (s_a s / 3600) /\ t5_4 e = scale * (s_b s / 3600) /\
                      psf_a = scale * bmaj /\ psf_b = scale * bmin /\ 0 < bmaj /\ 0 < bmin.

  Lemma recovery :
    to_component P psf_a psf_b (minimize (start_of u bpa) (in_box u) res) xmin ymin = injected bmaj bmin s.
  Proof.
    destruct Hstart as (Hs1 & Hs2 & Hs3 & Hs4 & Hs5).
    pose proof (minimize_finds_zero (start_of u bpa) (in_box u) res truth
                  (start_in_box u bpa Hs1 Hs2 Hs3 Hs4 Hs5) Hbox residual_zero_at_truth Hrank) as Hsame.
    unfold truth in Hsame. rewrite params_of_render in Hsame. fold e in Hsame. cbv zeta in Hsame.
    (* the optimiser returned one of the four parameterisations of the truth: the reported component is that of the truth *)
    rewrite (same_gaussian_same_component P Hconf psf_a psf_b xmin ymin (s_peak s)) by (exact Hsame || lra).
    assert (Hpa : -90 < s_pa s <= 90) by apply Hconf.
    apply (injected_of_ellipse P S); [exact (p2s_refl P Hconf) | lra.. | exists scale; exact Hscale].
  Qed.
End Recovery.

(* the propagated error of one axis in sky units: the great-circle distance (arcseconds) between the sky images of the end of the
   FWHM axis and of the same end with the standard deviation one standard error larger *)
Definition axis_err (P : R * R -> R * R) (xo yo s err_s theta : R) : R :=
  (let r := P (major_end xo yo (s * CC2FHWM) theta) in let o := P (major_end xo yo ((s + err_s) * CC2FHWM) theta) in
   gcd (fst r) (snd r) (fst o) (snd o)) * 3600.
Lemma c01_err_a P xo yo sx sy err_sx theta : reported_err_a P xo yo sx sy err_sx theta = axis_err P xo yo sx err_sx theta.
Proof. unfold reported_err_a. destruct (err_a_pixels_eq xo yo sx sy err_sx theta) as (-> & -> & ->). reflexivity. Qed.
Lemma c01_err_b P xo yo sx sy err_sy theta :
  reported_err_b P xo yo sx sy err_sy theta = axis_err P xo yo sy err_sy (theta + 90).
Proof. unfold reported_err_b. destruct (err_b_pixels_eq xo yo sx sy err_sy theta) as (-> & -> & ->). reflexivity. Qed.
(* on a WCS that maps these pixels to the points at distance a and a + da along one great circle through the centre, err_a = da:
   stated for the translate form used throughout *)
Lemma c01_err_a_linear P xo yo sx sy err_sx theta ra dec a da pa :
  P (major_end xo yo (sx * CC2FHWM) theta) = translate ra dec a pa ->
  P (major_end xo yo ((sx + err_sx) * CC2FHWM) theta) = translate (fst (translate ra dec a pa)) (snd (translate ra dec a pa)) da pa ->
  -90 < snd (translate ra dec a pa) < 90 ->
  -90 < snd (translate (fst (translate ra dec a pa)) (snd (translate ra dec a pa)) da pa) < 90 -> 0 < da < 180 ->
  reported_err_a P xo yo sx sy err_sx theta = da * 3600.
Proof.
  intros H1 H2 D1 D2 Hda. rewrite c01_err_a. unfold axis_err. rewrite H1, H2.
  rewrite (translate_gcd (fst (translate ra dec a pa)) (snd (translate ra dec a pa)) da pa D1 D2 Hda). reflexivity.
Qed.

(* the error stored as err_a is that of the larger of the two fitted standard deviations, i.e. of the axis that fix_shape made the
   major axis (for a WCS without shear the larger pixel axis is the larger sky axis) *)
Lemma c01_err_axes_shape P xo yo sx sy err_sx err_sy theta :
  reported_err_axes P xo yo sx sy err_sx err_sy theta =
  if Rlt_dec sx sy then (axis_err P xo yo sy err_sy (theta + 90), axis_err P xo yo sx err_sx theta)
  else (axis_err P xo yo sx err_sx theta, axis_err P xo yo sy err_sy (theta + 90)).
Proof.
  unfold reported_err_axes. rewrite err_axes_follow_shape_eq, c01_err_a, c01_err_b. cbn [andb]. unfold Rltb.
  destruct (Rlt_dec sx sy); reflexivity.
Qed.
