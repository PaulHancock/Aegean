(* C12 - the exports of a Region (NUNIQ list / MOC FITS, DS9 polygons, .mim).  The generated leaves
   used here (Gen/Regions.v: uniq_lo, uniq_hi, uniq_code, mocorder; Gen/RegionExport.v) are unfolded
   only in their characterising equations and are opaque afterwards.  Every export is a map over one
   enumeration of the stored cells, reg_cells: level by level, each level without repetition. *)
From Coq Require Import ZArith Bool List Lia Permutation.
From Aegean Require Import Gen.Regions Gen.RegionExport Model.RegionModel Model.RegionSpec
  Model.RegionExport Proofs.RegionProofs.
Import ListNotations.
Open Scope Z_scope.

Lemma uniq_lo_eq : uniq_lo = 1.
Proof. reflexivity. Qed.
Lemma uniq_hi_eq D : uniq_hi D = D + 1.
Proof. reflexivity. Qed.
Lemma uniq_code_eq d x : uniq_code d x = 4 ^ (d + 1) + x.
Proof. reflexivity. Qed.
Lemma mocorder_eq D : mocorder D = D.
Proof. reflexivity. Qed.
Lemma reg_lo_eq : reg_lo = 1.
Proof. reflexivity. Qed.
Lemma reg_hi_eq D : reg_hi D = D + 1.
Proof. reflexivity. Qed.
Lemma reg_nside_eq d : reg_nside d = 2 ^ d.
Proof. reflexivity. Qed.
Lemma reg_pixel_eq p : reg_pixel p = p.
Proof. reflexivity. Qed.
Lemma reg_step_eq : reg_step = 1.
Proof. reflexivity. Qed.
Lemma reg_nest_eq : reg_nest = true.
Proof. reflexivity. Qed.
Lemma reg_ra_divisor_eq : reg_ra_divisor = 15.
Proof. reflexivity. Qed.
Lemma reg_precision_eq : reg_precision = 2.
Proof. reflexivity. Qed.
Lemma fits_column_bits_eq : fits_column_bits = 64.
Proof. reflexivity. Qed.
Lemma fits_ordering_nuniq_eq : fits_ordering_nuniq = true.
Proof. reflexivity. Qed.
Lemma fits_pixtype_healpix_eq : fits_pixtype_healpix = true.
Proof. reflexivity. Qed.
Lemma fits_coordsys_icrs_eq : fits_coordsys_icrs = true.
Proof. reflexivity. Qed.

Local Opaque uniq_lo uniq_hi uniq_code mocorder reg_lo reg_hi reg_nside reg_pixel reg_step reg_nest
  reg_ra_divisor reg_precision fits_column_bits fits_ordering_nuniq fits_pixtype_healpix fits_coordsys_icrs
  children.

Lemma pow4_pow2 d : 0 <= d -> 4 ^ d = 2 ^ (2 * d).
Proof. intros Hd. rewrite Z.pow_mul_r by lia. reflexivity. Qed.

(* order = floor(log4 a): every a in [4^d, 4^(d+1)) has floor(log2 a) in {2d, 2d+1} *)
Lemma log4_block d a : 0 <= d -> 4 ^ d <= a < 4 ^ (d + 1) -> Z.log2 a / 2 = d.
Proof.
  intros Hd [Hlo Hhi].
  assert (Ha : 0 < a) by (pose proof (pow4_pos d Hd); lia).
  rewrite pow4_pow2 in Hlo by lia. rewrite pow4_pow2 in Hhi by lia.
  apply Z.log2_le_pow2 in Hlo; [|exact Ha].
  apply Z.log2_lt_pow2 in Hhi; [|exact Ha].
  symmetry. apply (Z.div_unique_pos (Z.log2 a) 2 d (Z.log2 a - 2 * d)); lia.
Qed.

(* the quarter of a code of level d lies in [4^d, 4^(d+1)): this is where `12 * 4^d` pixels fit *)
Lemma uniq_quarter d p : 0 <= d -> 0 <= p < 12 * 4 ^ d ->
  4 ^ d <= (4 * 4 ^ d + p) / 4 < 4 ^ (d + 1).
Proof.
  intros Hd Hp. rewrite pow4_succ by lia.
  pose proof (pow4_pos d Hd) as HP. set (P := 4 ^ d) in *.
  replace (4 * P + p) with (p + P * 4) by lia. rewrite Z.div_add by lia.
  assert (0 <= p / 4) by (apply Z.div_pos; lia).
  assert (p / 4 < 3 * P) by (apply Z.div_lt_upper_bound; lia).
  lia.
Qed.

Theorem ununiq_uniq : forall d p, 0 <= d -> 0 <= p < 12 * 4 ^ d -> ununiq (uniq_code d p) = (d, p).
Proof.
  intros d p Hd Hp. rewrite uniq_code_eq. unfold ununiq. rewrite pow4_succ by lia.
  assert (E : Z.log2 ((4 * 4 ^ d + p) / 4) / 2 = d)
    by (apply log4_block; [exact Hd | apply uniq_quarter; assumption]).
  cbv zeta. rewrite E. f_equal. lia.
Qed.

Theorem uniq_inj : forall d1 p1 d2 p2,
  0 <= d1 -> 0 <= p1 < 12 * 4 ^ d1 -> 0 <= d2 -> 0 <= p2 < 12 * 4 ^ d2 ->
  uniq_code d1 p1 = uniq_code d2 p2 -> d1 = d2 /\ p1 = p2.
Proof.
  intros d1 p1 d2 p2 Hd1 Hp1 Hd2 Hp2 E.
  pose proof (ununiq_uniq d1 p1 Hd1 Hp1) as E1. pose proof (ununiq_uniq d2 p2 Hd2 Hp2) as E2.
  rewrite E in E1. rewrite E1 in E2. inversion E2. split; reflexivity.
Qed.

Lemma vcell_code D c : vcell D c -> ununiq (uniq_code (fst c) (snd c)) = c.
Proof.
  intros [Hd Hp]. destruct c as [d p]. cbn [fst snd] in *. apply ununiq_uniq; lia.
Qed.

Definition cell_eq_dec : forall a b : cell, {a = b} + {a <> b}.
Proof. decide equality; apply Z.eq_dec. Defined.

(* write_reg goes through the stored cells in the order of RegionProofs.lcells *)
Lemma reg_cells_eq s : reg_cells s = lcells (depth s) (cells s).
Proof. unfold reg_cells. rewrite reg_lo_eq, reg_hi_eq, Z.add_simpl_r. reflexivity. Qed.

Lemma in_reg_cells s c : In c (reg_cells s) <-> 1 <= fst c <= depth s /\ In c (cells s).
Proof. rewrite reg_cells_eq. apply in_lcells. Qed.

Lemma NoDup_reg_cells s : NoDup (reg_cells s).
Proof. rewrite reg_cells_eq. apply NoDup_lcells. Qed.

Lemma reg_cells_valid s c : valid s -> (In c (reg_cells s) <-> In c (cells s)).
Proof.
  intros [_ Hv]. rewrite in_reg_cells. split; [tauto|]. intros Hin.
  split; [apply (vcells_in _ _ _ Hv Hin) | exact Hin].
Qed.

(* one polygon per distinct stored cell, each stored cell exactly once, every level 1..depth *)
Theorem reg_cells_exact : forall s, valid s ->
  NoDup (reg_cells s) /\ (forall c, In c (reg_cells s) <-> In c (cells s)) /\
  Permutation (reg_cells s) (nodup cell_eq_dec (cells s)).
Proof.
  intros s Hv. split; [apply NoDup_reg_cells|]. split; [intros c; apply reg_cells_valid; exact Hv|].
  apply NoDup_Permutation; [apply NoDup_reg_cells | apply NoDup_nodup|].
  intros c. rewrite nodup_In. apply reg_cells_valid. exact Hv.
Qed.

Lemma uniq_reg_cells s : uniq s = map (fun c => uniq_code (fst c) (snd c)) (reg_cells s).
Proof.
  unfold uniq, reg_cells.
  rewrite !flat_map_concat_map, concat_map, map_map, uniq_lo_eq, uniq_hi_eq, reg_lo_eq, reg_hi_eq.
  f_equal. apply map_ext. intros d. rewrite map_map. reflexivity.
Qed.

Lemma decode_reg_cells s : valid s -> map ununiq (uniq s) = reg_cells s.
Proof.
  intros Hv. rewrite uniq_reg_cells, map_map. rewrite <- (map_id (reg_cells s)) at 2.
  apply map_ext_in. intros c Hc. apply (reg_cells_valid s c Hv) in Hc.
  apply (vcell_code (depth s)). exact (vcells_in _ _ _ (proj2 Hv) Hc).
Qed.

Lemma moc_pixels_eq s : valid s -> moc_pixels (write_fits s) = pixels (depth s) (cells s).
Proof.
  intros Hv. unfold moc_pixels, decode, write_fits. cbn [moc_npix moc_order].
  rewrite decode_reg_cells, mocorder_eq, reg_cells_eq by exact Hv. reflexivity.
Qed.

(* every stored cell of every level 1..depth - the deepest included - is exported, nothing else *)
Theorem uniq_complete : forall s u, valid s ->
  (In u (uniq s) <-> exists c, In c (cells s) /\ u = uniq_code (fst c) (snd c)).
Proof.
  intros s u Hv. rewrite uniq_reg_cells, in_map_iff.
  split; intros [c [H1 H2]]; exists c.
  - split; [apply (reg_cells_valid s c Hv); exact H2 | symmetry; exact H1].
  - split; [symmetry; exact H2 | apply (reg_cells_valid s c Hv); exact H1].
Qed.

Theorem decode_is_cells : forall s c, valid s -> (In c (map ununiq (uniq s)) <-> In c (cells s)).
Proof. intros s c Hv. rewrite decode_reg_cells by exact Hv. apply reg_cells_valid. exact Hv. Qed.

(* codes are positive and fit the signed integer column for every depth HEALPix supports *)
Theorem uniq_fits_column : forall s, valid s -> depth s <= 29 ->
  Forall (fun u => 0 < u < 2 ^ (fits_column_bits - 1)) (uniq s).
Proof.
  intros s Hval H29. apply Forall_forall. intros u Hu.
  apply (uniq_complete s u Hval) in Hu. destruct Hu as [[d p] [Hin ->]]. cbn [fst snd].
  pose proof (vcells_in _ _ _ (proj2 Hval) Hin) as [Hd Hp]. cbn [fst snd] in *.
  rewrite uniq_code_eq, fits_column_bits_eq.
  pose proof (pow4_pos (d + 1) ltac:(lia)). rewrite pow4_succ in * by lia.
  assert (4 ^ d <= 4 ^ 29) by (apply Z.pow_le_mono_r; lia).
  (* 2^63 = 2^3 * 4^30, and a code of level d <= 29 is below 4 * 4^30 *)
  replace (64 - 1) with (3 + 2 * (29 + 1)) by reflexivity.
  rewrite Z.pow_add_r, <- pow4_pow2, pow4_succ by lia. change (2 ^ 3) with 8. lia.
Qed.

Theorem moc_is_region : forall s, valid s ->
  forall q, absP s q <-> exists u, In u (uniq s) /\ cover (depth s) (ununiq u) q.
Proof.
  intros s Hv q. rewrite <- cover_set_map, decode_reg_cells by exact Hv.
  apply cover_set_ext. intros c. symmetry. apply reg_cells_valid. exact Hv.
Qed.

Theorem moc_pixels_is_region : forall s, valid s ->
  forall q, In q (moc_pixels (write_fits s)) <-> absP s q.
Proof. intros s Hv q. rewrite moc_pixels_eq by exact Hv. apply in_pixels, Hv. Qed.

Theorem moc_order_is_depth : forall s, moc_order (write_fits s) = depth s /\ mocorder (depth s) = depth s.
Proof. intros s. unfold write_fits. cbn [moc_order]. rewrite mocorder_eq. split; reflexivity. Qed.

(* whatever operations or queries preceded the export *)
Theorem moc_after_history : forall D ops, 1 <= D -> Forall (op_ok D) ops ->
  let s := run (init D) ops in
  moc_order (write_fits s) = D /\
  (forall q, (exists u, In u (moc_npix (write_fits s)) /\ cover (moc_order (write_fits s)) (ununiq u) q)
             <-> fold_left (spec_step D) ops (fun _ => False) q) /\
  (forall q, In q (moc_pixels (write_fits s)) <-> fold_left (spec_step D) ops (fun _ => False) q).
Proof.
  intros D ops HD Hops s. destruct (reachable_inv D ops HD Hops) as [[Hval _] Hdep]. fold s in Hval, Hdep.
  destruct (moc_order_is_depth s) as [Ho _]. rewrite Ho, Hdep.
  split; [reflexivity|]. split.
  - intros q. rewrite <- (history_refines D ops HD Hops q). fold s.
    unfold write_fits. cbn [moc_npix]. rewrite <- Hdep. symmetry. apply moc_is_region. exact Hval.
  - intros q. rewrite <- (history_refines D ops HD Hops q). fold s. apply moc_pixels_is_region. exact Hval.
Qed.

(* a query between two exports changes the stored representation (everything is demoted) but
   not what the export means *)
Theorem export_after_query : forall s o, Inv s ->
  match o with Within _ | GetDemoted | GetArea | Uniq | SaveLoad => True | _ => False end ->
  forall q, In q (moc_pixels (write_fits (fst (step s o)))) <-> In q (moc_pixels (write_fits s)).
Proof.
  intros s o HI Ho q.
  assert (Hok : op_ok (depth s) o) by (destruct o; try contradiction; exact I).
  destruct (step_inv s o HI Hok) as [[Hval' _] _].
  rewrite (moc_pixels_is_region _ Hval'), (moc_pixels_is_region s (proj1 HI)).
  exact (proj1 (queries_pure s o HI Ho) q).
Qed.

Section WriteRegProofs.
  Variable vertex : Type.
  Variable boundaries : Z -> Z -> Z -> bool -> list vertex.   (* healpy.boundaries(nside, pix, step, nest) *)
  Variable corners : cell -> list vertex.                       (* the corners of HEALPix cell (level, pixel) *)
  (* library hypothesis (validated against healpy and an independent HEALPix corner computation on
     every run): with step=1 and nested numbering healpy returns the corners of the pixel *)
  Hypothesis boundaries_corners : forall d p, 1 <= d -> 0 <= p < 12 * 4 ^ d ->
    boundaries (2 ^ d) p 1 true = corners (d, p).

  Theorem reg_count : forall s, valid s ->
    length (write_reg vertex boundaries s) = length (nodup cell_eq_dec (cells s)).
  Proof.
    intros s Hval. unfold write_reg. rewrite map_length.
    apply Permutation_length. exact (proj2 (proj2 (reg_cells_exact s Hval))).
  Qed.

  Theorem reg_polygons_are_corners : forall s, valid s ->
    write_reg vertex boundaries s = map corners (reg_cells s).
  Proof.
    intros s [HD Hv]. unfold write_reg. apply map_ext_in. intros [d p] Hc.
    apply in_reg_cells in Hc. destruct Hc as [Hd Hin]. cbn [fst] in Hd.
    pose proof (vcells_in _ _ _ Hv Hin) as [_ Hp]. cbn [fst snd] in Hp.
    unfold polygon_of, bnd_request. cbn [fst snd].
    rewrite reg_nside_eq, reg_pixel_eq, reg_step_eq, reg_nest_eq.
    apply boundaries_corners; lia.
  Qed.
End WriteRegProofs.

(* the requests themselves, without any hypothesis on healpy *)
Theorem reg_requests_exact : forall s,
  reg_requests s = map (fun c => (2 ^ fst c, snd c, 1, true)) (reg_cells s).
Proof.
  intros s. unfold reg_requests. apply map_ext. intros c. unfold bnd_request.
  rewrite reg_nside_eq, reg_pixel_eq, reg_step_eq, reg_nest_eq. reflexivity.
Qed.

(* the right ascension is printed in hours: a full turn of 360 degrees is 24 units *)
Theorem reg_ra_in_hours : 360 = 24 * reg_ra_divisor.
Proof. rewrite reg_ra_divisor_eq. reflexivity. Qed.

Section PickleProofs.
  Variable blob : Type.
  Variable dump : region -> blob.
  Variable load : blob -> region.
  (* library hypothesis (validated on real .mim files on every run: maxdepth, every level of
     pixeldict, demoted and its aliasing with pixeldict[maxdepth] are reproduced) *)
  Hypothesis pickle_id : forall s, load (dump s) = s.

  Theorem saveload_id : forall s,
    load_mim blob load (save_mim blob dump s) = s /\
    (forall ops, trace (load_mim blob load (save_mim blob dump s)) ops = trace s ops) /\
    mim2fits blob load (save_mim blob dump s) = write_fits s /\
    mim2reg blob load (save_mim blob dump s) = reg_cells s.
  Proof.
    intros s. unfold load_mim, save_mim, mim2fits, mim2reg, load_mim. rewrite pickle_id.
    repeat split; reflexivity.
  Qed.
End PickleProofs.
