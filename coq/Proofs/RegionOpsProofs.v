(* C08 - the same-depth set operations rebuilt from the method codes read off regions.py
   (Model/RegionOps.v over Gen/RegionOps.v) are the operations without / intersect / symdiff of
   Model/RegionModel.v that Proofs/RegionProofs.v reasons about.  Each generated code and flag
   has its value stated once; a change in regions.py breaks that statement. *)
From Coq Require Import ZArith Bool List.
From Aegean Require Import Gen.Regions Gen.RegionOps Model.RegionModel Model.RegionOps.
Import ListNotations.
Open Scope Z_scope.

Lemma op_without_is_difference : op_without = 0. Proof. reflexivity. Qed.
Lemma op_intersect_is_intersection : op_intersect = 1. Proof. reflexivity. Qed.
Lemma op_symdiff_is_symmetric_difference : op_symmetric_difference = 2. Proof. reflexivity. Qed.
Lemma setop_skeleton : setop_skeleton_ok = true. Proof. reflexivity. Qed.
Lemma get_demoted_cache : get_demoted_returns_cache = true. Proof. reflexivity. Qed.

Lemma without_src_eq : forall s o, without_src s o = without s o.
Proof. intros s o. unfold without_src, without. rewrite op_without_is_difference. reflexivity. Qed.
Lemma intersect_src_eq : forall s o, intersect_src s o = intersect s o.
Proof. intros s o. unfold intersect_src, intersect. rewrite op_intersect_is_intersection. reflexivity. Qed.
Lemma symdiff_src_eq : forall s o, symdiff_src s o = symdiff s o.
Proof. intros s o. unfold symdiff_src, symdiff. rewrite op_symdiff_is_symmetric_difference. reflexivity. Qed.

