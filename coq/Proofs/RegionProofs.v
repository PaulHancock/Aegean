(* C08 - the executable Region model (Model/RegionModel.v) refines the set-algebra specification
   (Model/RegionSpec.v).  The generated leaves of Gen/Regions.v are unfolded only in their
   characterising equations at the top and are opaque afterwards, so a change of a leaf in
   regions.py breaks exactly one named lemma here.
   After the refinement theorems the file enumerates a region: `lcells` lists the stored cells
   level by level and `pixels` the deepest-level pixels they stand for, each with its membership,
   NoDup and length lemmas.  get_area (area_is_cardinality), the exports of
   Proofs/RegionExportProofs.v and the area bound of Proofs/SkyCoordsProofs.v count and map over
   these two lists. *)
From Coq Require Import ZArith Bool List Lia Permutation.
From Aegean Require Import Lib.Lists Gen.Regions Model.RegionModel Model.RegionSpec.
Import ListNotations.
Open Scope Z_scope.

Lemma children_eq p : children p = [4 * p; 4 * p + 1; 4 * p + 2; 4 * p + 3].
Proof. reflexivity. Qed.
Lemma parent_eq p : parent p = p / 4.
Proof. reflexivity. Qed.
Lemma sibling_test_eq p : sibling_test p = (p mod 4 =? 0).
Proof. reflexivity. Qed.
Lemma sibling_members_eq p : sibling_members p = [p + 1; p + 2; p + 3].
Proof. reflexivity. Qed.
Lemma siblings_eq p : siblings p = [p; p + 1; p + 2; p + 3].
Proof. reflexivity. Qed.
Lemma degrade_eq p d D : degrade p d D = p / 4 ^ (d - D).
Proof. reflexivity. Qed.
Lemma demote_lo_eq : demote_lo = 1.
Proof. reflexivity. Qed.
Lemma demote_hi_eq D : demote_hi D = D.
Proof. reflexivity. Qed.
Lemma renorm_from_eq D : renorm_from D = D.
Proof. reflexivity. Qed.
Lemma renorm_stop_eq : renorm_stop = 2.
Proof. reflexivity. Qed.
Lemma area_lo_eq : area_lo = 1.
Proof. reflexivity. Qed.
Lemma area_hi_eq D : area_hi D = D + 1.
Proof. reflexivity. Qed.
Lemma add_pixels_resets_cache_eq : add_pixels_resets_cache = true.
Proof. reflexivity. Qed.

Local Opaque children parent sibling_test sibling_members siblings degrade demote_lo demote_hi
  renorm_from renorm_stop area_lo area_hi add_pixels_resets_cache.

Lemma block_div P p q : 0 < P -> (P * p <= q < P * (p + 1) <-> q / P = p).
Proof.
  intros HP. split.
  - intros Hq. symmetry. apply (Z.div_unique_pos q P p (q - P * p)); lia.
  - intros Hq. subst p. pose proof (Z.mul_div_le q P HP). pose proof (Z.mul_succ_div_gt q P HP). lia.
Qed.

Lemma in_children p c : In c (children p) <-> c / 4 = p.
Proof. rewrite children_eq, <- block_div by lia. cbn [In]. lia. Qed.

Lemma in_siblings p x : In x (siblings p) <-> p <= x <= p + 3.
Proof. rewrite siblings_eq. cbn [In]. lia. Qed.

Lemma memZ_spec x l : memZ x l = true <-> In x l.
Proof.
  unfold memZ. rewrite existsb_exists. split.
  - intros [y [Hy Hxy]]. apply Z.eqb_eq in Hxy. subst y. exact Hy.
  - intros Hx. exists x. split; [exact Hx | apply Z.eqb_refl].
Qed.

Lemma in_at_level d ps c : In c (at_level d ps) <-> exists p, c = (d, p) /\ In p ps.
Proof.
  unfold at_level. rewrite in_map_iff.
  split; intros [p [E Hp]]; exists p; (split; [symmetry; exact E | exact Hp]).
Qed.

Lemma in_at_level_pair d ps e p : In (e, p) (at_level d ps) <-> e = d /\ In p ps.
Proof.
  rewrite in_at_level. split.
  - intros [p' [E Hp]]. injection E as -> ->. tauto.
  - intros [-> Hp]. exists p. tauto.
Qed.

Lemma in_level cs d p : In p (level cs d) <-> In (d, p) cs.
Proof.
  unfold level. rewrite in_map_iff. split.
  - intros [[d' p'] [Hsnd Hin]]. apply filter_In in Hin. destruct Hin as [Hin Hd].
    cbn [fst snd] in *. apply Z.eqb_eq in Hd. subst. exact Hin.
  - intros Hin. exists (d, p). split; [reflexivity|]. apply filter_In. split; [exact Hin|].
    cbn [fst]. apply Z.eqb_refl.
Qed.

Lemma vcells_in D cs c : Forall (vcell D) cs -> In c cs -> vcell D c.
Proof. intros H. exact (proj1 (Forall_forall _ _) H c). Qed.

Lemma pow4_pos k : 0 <= k -> 0 < 4 ^ k.
Proof. intros Hk. apply Z.pow_pos_nonneg; lia. Qed.

Lemma pow4_succ k : 0 <= k -> 4 ^ (k + 1) = 4 * 4 ^ k.
Proof. intros Hk. rewrite Z.pow_add_r by lia. rewrite Z.pow_1_r. lia. Qed.

Lemma pow4_split a b : 0 <= a <= b -> 4 ^ b = 4 ^ (b - a) * 4 ^ a.
Proof. intros H. rewrite <- Z.pow_add_r by lia. f_equal. lia. Qed.

Lemma expand_div k : forall p q, In q (expand k p) <-> q / 4 ^ Z.of_nat k = p.
Proof.
  induction k as [|k IH]; intros p q; cbn [expand].
  - change (4 ^ Z.of_nat 0) with 1. rewrite Z.div_1_r. cbn [In]. intuition congruence.
  - rewrite in_flat_map, Nat2Z.inj_succ, <- Z.add_1_r, pow4_succ, (Z.mul_comm 4), <- Z.div_div
      by (try apply Z.pow_nonzero; lia).
    split.
    + intros [c [Hc Hq]]. apply IH in Hq. apply in_children in Hc. rewrite Hq. exact Hc.
    + intros Hq. exists (q / 4 ^ Z.of_nat k). split; [apply in_children; exact Hq | apply IH; reflexivity].
Qed.

Lemma cover_le D d p q : d <= D ->
  (cover D (d, p) q <-> 4 ^ (D - d) * p <= q < 4 ^ (D - d) * (p + 1)).
Proof.
  intros Hd. unfold cover. cbn [fst snd].
  destruct (Z.leb_spec d D) as [_|Hlt]; [tauto | lia].
Qed.

Lemma cover_gt D d p q : D < d -> (cover D (d, p) q <-> q = p / 4 ^ (d - D)).
Proof.
  intros Hd. unfold cover. cbn [fst snd].
  destruct (Z.leb_spec d D) as [Hle|_]; [lia | tauto].
Qed.

Lemma cover_div D d p q : d <= D -> (cover D (d, p) q <-> q / 4 ^ (D - d) = p).
Proof.
  intros Hd. rewrite cover_le by exact Hd. apply block_div. apply pow4_pos. lia.
Qed.

Lemma cover_top D p q : cover D (D, p) q <-> q = p.
Proof. rewrite cover_div, Z.sub_diag, Z.pow_0_r, Z.div_1_r by lia. reflexivity. Qed.

Lemma cover_degrade D d p q : D < d -> (cover D (D, degrade p d D) q <-> cover D (d, p) q).
Proof. intros Hd. rewrite cover_top, degrade_eq, cover_gt by exact Hd. tauto. Qed.

Lemma cover_div_parent D d y q : d <= D -> (cover D (d - 1, y) q <-> q / 4 ^ (D - d) / 4 = y).
Proof.
  intros Hd. rewrite cover_div by lia. replace (D - (d - 1)) with (D - d + 1) by lia.
  rewrite pow4_succ, (Z.mul_comm 4), <- Z.div_div by (try apply Z.pow_nonzero; lia). reflexivity.
Qed.

(* D' is free: the operand of a union may be deeper than the region *)
Lemma cover_vcell D D' c q : 1 <= D -> vcell D' c -> cover D c q -> vcell D (D, q).
Proof.
  destruct c as [d p]. intros HD [[Hd _] Hp] Hq. cbn [fst snd] in Hd, Hp.
  split; cbn [fst snd]; [lia|]. revert Hq. destruct (Z_le_gt_dec d D) as [Hle|Hgt].
  - rewrite cover_le by exact Hle. rewrite (pow4_split d D) by lia.
    pose proof (pow4_pos (D - d) ltac:(lia)). nia.
  - rewrite cover_gt by lia. intros ->. rewrite (pow4_split D d) in Hp by lia.
    pose proof (pow4_pos (d - D) ltac:(lia)) as HP.
    split; [apply Z.div_pos; lia | apply Z.div_lt_upper_bound; lia].
Qed.

Theorem expand_cover : forall D d p q, d <= D ->
  (In q (expand (Z.to_nat (D - d)) p) <-> cover D (d, p) q).
Proof. intros D d p q Hd. rewrite expand_div, cover_div, Z2Nat.id by lia. reflexivity. Qed.

Lemma cover_set_Exists D cs q : cover_set D cs q <-> Exists (fun c => cover D c q) cs.
Proof. symmetry. apply Exists_exists. Qed.

Lemma cover_set_nil D q : cover_set D [] q <-> False.
Proof. rewrite cover_set_Exists. apply Exists_nil. Qed.

Lemma cover_set_one D c q : cover_set D [c] q <-> cover D c q.
Proof. rewrite cover_set_Exists, Exists_cons, Exists_nil. tauto. Qed.

Lemma cover_set_app D a b q : cover_set D (a ++ b) q <-> cover_set D a q \/ cover_set D b q.
Proof. rewrite !cover_set_Exists. apply Exists_app. Qed.

Lemma cover_set_flat_map {A} D (f : A -> list cell) l q :
  cover_set D (flat_map f l) q <-> exists a, In a l /\ cover_set D (f a) q.
Proof.
  rewrite cover_set_Exists, Exists_flat_map, Exists_exists.
  split; intros [a Ha]; exists a; rewrite cover_set_Exists in *; exact Ha.
Qed.

Lemma cover_set_map {A} D (f : A -> cell) l q :
  cover_set D (map f l) q <-> exists a, In a l /\ cover D (f a) q.
Proof. rewrite cover_set_Exists, Exists_map. apply Exists_exists. Qed.

Lemma cover_set_ext D a b q : (forall c, In c a <-> In c b) -> (cover_set D a q <-> cover_set D b q).
Proof.
  intros H. unfold cover_set. split; intros [c [Hc Hq]]; exists c; (split; [apply H; exact Hc | exact Hq]).
Qed.

Lemma cover_set_at_level D d ps q : d <= D ->
  (cover_set D (at_level d ps) q <-> In (q / 4 ^ (D - d)) ps).
Proof.
  intros Hd. unfold at_level. rewrite cover_set_map. split.
  - intros [p [Hp Hq]]. apply cover_div in Hq; [|exact Hd]. rewrite Hq. exact Hp.
  - intros Hp. eexists. split; [exact Hp | apply cover_div; [exact Hd | reflexivity]].
Qed.

Lemma cover_set_at_top D ps q : cover_set D (at_level D ps) q <-> In q ps.
Proof. rewrite cover_set_at_level, Z.sub_diag, Z.div_1_r by lia. tauto. Qed.

Lemma absP_mk D cs b q : absP (mkRegion D cs b) q <-> cover_set D cs q.
Proof. reflexivity. Qed.

Lemma absP_init D q : absP (init D) q <-> False.
Proof. apply cover_set_nil. Qed.

Lemma absP_vcell s q : valid s -> absP s q -> vcell (depth s) (depth s, q).
Proof.
  intros [HD Hv] [c [Hc Hq]]. exact (cover_vcell _ _ c q HD (vcells_in _ _ _ Hv Hc) Hq).
Qed.

(* list-level versions of the spec predicates, convenient for the loops *)
Definition flat (D : Z) (cs : list cell) : Prop := forall c, In c cs -> fst c = D.
Definition nov (D : Z) (cs : list cell) : Prop :=
  forall c1 c2 q, In c1 cs -> In c2 cs -> cover D c1 q -> cover D c2 q -> c1 = c2.

Lemma no_overlap_nov s : no_overlap s <-> nov (depth s) (cells s).
Proof. reflexivity. Qed.

Lemma flat_nov D cs : flat D cs -> nov D cs.
Proof.
  intros Hf [d1 p1] [d2 p2] q H1 H2 Hq1 Hq2.
  pose proof (Hf _ H1) as E1. pose proof (Hf _ H2) as E2. cbn [fst] in E1, E2. subst d1 d2.
  apply cover_top in Hq1. apply cover_top in Hq2. congruence.
Qed.

Lemma flat_level_cover D cs q : flat D cs -> (In q (level cs D) <-> cover_set D cs q).
Proof.
  intros Hf. rewrite in_level. split.
  - intros Hin. exists (D, q). split; [exact Hin | apply cover_top; reflexivity].
  - intros [[d p] [Hc Hq]]. pose proof (Hf _ Hc) as E. cbn [fst] in E. subst d.
    apply cover_top in Hq. subst q. exact Hc.
Qed.

Lemma demotable_spec D c : demotable D c = true <-> 1 <= fst c < D.
Proof.
  unfold demotable. rewrite demote_lo_eq, demote_hi_eq.
  rewrite andb_true_iff, Z.leb_le, Z.ltb_lt. tauto.
Qed.

(* what _demote_all puts in the place of one cell *)
Definition demote1 (D : Z) (c : cell) : list cell :=
  if demotable D c then at_level (demote_hi D) (expand (Z.to_nat (demote_hi D - fst c)) (snd c))
  else [c].

Lemma demoted_cells_eq D cs : demoted_cells D cs = flat_map (demote1 D) cs.
Proof. reflexivity. Qed.

Lemma demote1_cover D c q : cover_set D (demote1 D c) q <-> cover D c q.
Proof.
  unfold demote1. destruct (demotable D c) eqn:E; [|apply cover_set_one].
  apply demotable_spec in E. rewrite demote_hi_eq, cover_set_at_top.
  destruct c as [d p]. apply expand_cover. cbn [fst] in E. lia.
Qed.

Lemma demoted_cover D cs q : cover_set D (demoted_cells D cs) q <-> cover_set D cs q.
Proof.
  rewrite demoted_cells_eq, cover_set_flat_map. setoid_rewrite demote1_cover. reflexivity.
Qed.

Lemma in_demote1 D c c' : 1 <= D -> vcell D c -> In c' (demote1 D c) -> fst c' = D /\ vcell D c'.
Proof.
  intros HD Hv. unfold demote1. destruct (demotable D c) eqn:E.
  - apply demotable_spec in E. rewrite demote_hi_eq, in_at_level. intros [q [-> Hq]].
    split; [reflexivity|]. apply (cover_vcell D D c q HD Hv).
    destruct c as [d p]. apply expand_cover; [cbn [fst] in E; lia | exact Hq].
  - rewrite <- not_true_iff_false, demotable_spec in E. intros [<-|[]].
    split; [destruct Hv as [Hlev _]; lia | exact Hv].
Qed.

Lemma in_demoted_cells D cs c' : 1 <= D -> Forall (vcell D) cs -> In c' (demoted_cells D cs) ->
  fst c' = D /\ vcell D c'.
Proof.
  intros HD Hv Hc'. rewrite demoted_cells_eq in Hc'. apply in_flat_map in Hc'. destruct Hc' as [c [Hc Hc']].
  exact (in_demote1 D c c' HD (vcells_in D cs c Hv Hc) Hc').
Qed.

Lemma demoted_flat D cs : 1 <= D -> Forall (vcell D) cs -> flat D (demoted_cells D cs).
Proof. intros HD Hv c' Hc'. apply (in_demoted_cells D cs c' HD Hv Hc'). Qed.

Lemma demoted_valid D cs : 1 <= D -> Forall (vcell D) cs -> Forall (vcell D) (demoted_cells D cs).
Proof. intros HD Hv. apply Forall_forall. intros c' Hc'. apply (in_demoted_cells D cs c' HD Hv Hc'). Qed.

Lemma demote_all_cases s :
  (demote_all s = s /\ cached s = true) \/
  demote_all s = mkRegion (depth s) (demoted_cells (depth s) (cells s)) true.
Proof.
  unfold demote_all.
  destruct (cached s && negb match level (cells s) (depth s) with [] => true | _ :: _ => false end) eqn:E.
  - left. apply andb_true_iff in E. split; [reflexivity | tauto].
  - right. reflexivity.
Qed.

Lemma demote_all_depth s : depth (demote_all s) = depth s.
Proof. destruct (demote_all_cases s) as [[E _]|E]; rewrite E; reflexivity. Qed.

Lemma demote_all_absP s q : absP (demote_all s) q <-> absP s q.
Proof.
  destruct (demote_all_cases s) as [[E _]|E]; rewrite E; [tauto | apply demoted_cover].
Qed.

Lemma demote_all_valid s : valid s -> valid (demote_all s).
Proof.
  intros [HD Hv]. destruct (demote_all_cases s) as [[E _]|E]; rewrite E; [split; assumption|].
  split; cbn [depth cells]; [exact HD | apply demoted_valid; assumption].
Qed.

Lemma demote_all_flat s : Inv s -> flat (depth s) (cells (demote_all s)).
Proof.
  intros [[HD Hv] Hc]. destruct (demote_all_cases s) as [[E Hcached]|E]; rewrite E.
  - exact (Hc Hcached).
  - cbn [cells]. apply demoted_flat; assumption.
Qed.

Lemma demote_all_Inv s : Inv s -> Inv (demote_all s).
Proof.
  intros HI. split; [apply demote_all_valid; apply HI|].
  intros _. rewrite demote_all_depth. apply demote_all_flat. exact HI.
Qed.

(* the deepest level after _demote_all lists the pixel set; every query and every set operation
   reads the region through this *)
Lemma demote_all_level_absP s q : Inv s ->
  (In q (level (cells (demote_all s)) (depth s)) <-> absP s q).
Proof.
  intros HI. rewrite flat_level_cover by (apply demote_all_flat; exact HI).
  rewrite <- demote_all_absP. unfold absP. rewrite demote_all_depth. tauto.
Qed.

Lemma get_demoted_spec s q : Inv s -> (In q (snd (get_demoted s)) <-> absP s q).
Proof.
  intros HI. unfold get_demoted. cbn [snd]. rewrite demote_all_depth.
  apply demote_all_level_absP. exact HI.
Qed.

Lemma demote_all_no_overlap s : Inv s -> no_overlap s -> no_overlap (demote_all s).
Proof.
  intros HI Hno. destruct (demote_all_cases s) as [[E _]|E].
  - rewrite E. exact Hno.
  - rewrite no_overlap_nov, demote_all_depth. apply flat_nov. apply demote_all_flat. exact HI.
Qed.

(* p heads a complete sibling group at level d *)
Definition compl (d : Z) (cs : list cell) (p : Z) : Prop :=
  p mod 4 = 0 /\ In (d, p) cs /\ In (d, p + 1) cs /\ In (d, p + 2) cs /\ In (d, p + 3) cs.

Lemma compl_in d cs p i : compl d cs p -> 0 <= i <= 3 -> In (d, p + i) cs.
Proof.
  intros [_ [H0 [H1 [H2 H3]]]] Hi.
  assert (i = 0 \/ i = 1 \/ i = 2 \/ i = 3) as [-> | [-> | [-> | ->]]] by lia;
    [rewrite Z.add_0_r|..]; assumption.
Qed.

Lemma in_complete_level d cs p : In p (complete (level cs d)) <-> compl d cs p.
Proof.
  unfold complete, compl.
  rewrite filter_In, andb_true_iff, sibling_test_eq, Z.eqb_eq, sibling_members_eq.
  cbn [forallb]. rewrite !andb_true_iff, !memZ_spec, !in_level. tauto.
Qed.

(* the cells removed at level d: members of a complete group *)
Definition gone (d : Z) (cs : list cell) (c : cell) : Prop :=
  fst c = d /\ exists p, compl d cs p /\ p <= snd c <= p + 3.

Lemma gone_spec d cs c :
  (fst c =? d) && memZ (snd c) (flat_map siblings (complete (level cs d))) = true <-> gone d cs c.
Proof.
  unfold gone. rewrite andb_true_iff, Z.eqb_eq, memZ_spec, in_flat_map.
  split; intros [Hd [p [Hp Hx]]]; (split; [exact Hd|]); exists p;
    (split; [apply in_complete_level; exact Hp | apply in_siblings; exact Hx]).
Qed.

Lemma in_promote_level d cs c :
  In c (promote_level d cs) <->
  (exists p, (d - 1, p / 4) = c /\ compl d cs p) \/ (In c cs /\ ~ gone d cs c).
Proof.
  unfold promote_level, at_level.
  rewrite in_app_iff, map_map, in_map_iff, filter_In, negb_true_iff, <- not_true_iff_false, gone_spec.
  setoid_rewrite in_complete_level. setoid_rewrite parent_eq. reflexivity.
Qed.

Lemma gone_dec d cs c : gone d cs c \/ ~ gone d cs c.
Proof.
  rewrite <- gone_spec.
  destruct ((fst c =? d) && memZ (snd c) (flat_map siblings (complete (level cs d))));
    [left; reflexivity | right; discriminate].
Qed.

Lemma sibling_parent p x : p mod 4 = 0 -> (p <= x <= p + 3 <-> x / 4 = p / 4).
Proof. intros Hp. rewrite <- block_div by lia. pose proof (Z.div_mod p 4 ltac:(lia)). lia. Qed.

(* What a visit of level d does to each pair of a stored cell and a pixel it covers: a member of a
   complete group is replaced by its parent, which covers the pixel too, and every other cell is
   kept.  That the pixel set and the absence of overlap are preserved is read off this. *)
Lemma promote_level_covers D d cs c' q : d <= D ->
  (In c' (promote_level d cs) /\ cover D c' q <->
   exists c, In c cs /\ cover D c q /\
             (gone d cs c /\ c' = (d - 1, snd c / 4) \/ ~ gone d cs c /\ c' = c)).
Proof.
  intros Hd. rewrite in_promote_level. split.
  - intros [[[p [<- Hp]]|[Hc Hk]] Hq]; [|exists c'; tauto].
    (* of the four children of the new parent, the one that covers q *)
    apply cover_div_parent in Hq; [|exact Hd]. set (x := q / 4 ^ (D - d)) in Hq.
    pose proof (proj2 (sibling_parent p x (proj1 Hp)) Hq) as Hx.
    exists (d, x). split; [|split; [apply cover_div; [exact Hd | reflexivity]|left; split]].
    + replace x with (p + (x - p)) by lia. apply compl_in; [exact Hp | lia].
    + split; [reflexivity | exists p; split; [exact Hp | exact Hx]].
    + cbn [snd]. congruence.
  - intros [[e x] [Hc [Hq [[[He [p [Hp Hx]]] ->]|[Hk ->]]]]]; [|tauto].
    cbn [fst snd] in *. subst e. apply sibling_parent in Hx; [|apply Hp]. split.
    + left. exists p. split; [congruence | exact Hp].
    + apply cover_div_parent; [exact Hd|]. apply cover_div in Hq; [|exact Hd]. congruence.
Qed.

Lemma promote_level_cover D d cs q : d <= D ->
  (cover_set D (promote_level d cs) q <-> cover_set D cs q).
Proof.
  intros Hd. unfold cover_set. split.
  - intros [c' Hc']. apply (promote_level_covers D d cs c' q Hd) in Hc'.
    destruct Hc' as [c Hc]. exists c. tauto.
  - intros [c Hc].
    destruct (gone_dec d cs c) as [Hg|Hk]; [exists (d - 1, snd c / 4) | exists c];
      (apply promote_level_covers; [exact Hd | exists c; tauto]).
Qed.

Lemma promote_level_valid D d cs : 2 <= d <= D ->
  Forall (vcell D) cs -> Forall (vcell D) (promote_level d cs).
Proof.
  intros Hd Hv. apply Forall_forall. intros c Hc. apply in_promote_level in Hc.
  destruct Hc as [[p [<- [Hmod [H0 _]]]]|[Hc _]]; [|exact (vcells_in D cs c Hv Hc)].
  pose proof (vcells_in D cs _ Hv H0) as [_ Hpix]. cbn [fst snd] in Hpix.
  unfold vcell. cbn [fst snd]. split; [lia|].
  replace d with ((d - 1) + 1) in Hpix by lia. rewrite pow4_succ in Hpix by lia.
  pose proof (Z.div_mod p 4 ltac:(lia)). lia.
Qed.

Lemma promote_level_nov D d cs : d <= D -> nov D cs -> nov D (promote_level d cs).
Proof.
  intros Hd Hn c1' c2' q H1 H2 Hq1 Hq2.
  destruct (proj1 (promote_level_covers D d cs c1' q Hd) (conj H1 Hq1)) as [c1 [Hc1 [Hqc1 E1]]].
  destruct (proj1 (promote_level_covers D d cs c2' q Hd) (conj H2 Hq2)) as [c2 [Hc2 [Hqc2 E2]]].
  (* both come from the one cell of cs that covers q *)
  assert (c2 = c1) as -> by exact (Hn c2 c1 q Hc2 Hc1 Hqc2 Hqc1).
  destruct E1 as [[Hg1 ->]|[Hk1 ->]], E2 as [[Hg2 ->]|[Hk2 ->]];
    [reflexivity | contradiction | contradiction | reflexivity].
Qed.

Lemma promote_level_kept d cs e x : e <> d - 1 ->
  (In (e, x) (promote_level d cs) <-> In (e, x) cs /\ ~ gone d cs (e, x)).
Proof.
  intros He. rewrite in_promote_level.
  split; [intros [[p [E _]]|H]; [inversion E; lia | exact H] | tauto].
Qed.

(* after promote_level d no complete sibling group is left at level d: its head would have gone *)
Lemma promote_level_nomerge d cs p : ~ compl d (promote_level d cs) p.
Proof.
  unfold compl at 1. rewrite !promote_level_kept by lia.
  intros [Hmod [[H0 Hk] [[H1 _] [[H2 _] [H3 _]]]]].
  apply Hk. split; [reflexivity|]. exists p. cbn [snd]. split; [unfold compl; tauto | lia].
Qed.

(* The loop of _renorm visits the levels d, d-1, ..., and an invariant may speak of the level that
   comes next. *)
Lemma promote_inv (I : Z -> list cell -> Prop) lo D :
  (forall d cs, lo < d <= D -> I d cs -> I (d - 1) (promote_level d cs)) ->
  forall n d cs, d <= D -> Z.of_nat n <= Z.max 0 (d - lo) -> I d cs ->
  I (d - Z.of_nat n) (promote n d cs).
Proof.
  intros Hstep. induction n as [|n IH]; intros d cs Hd Hn Hcs; cbn [promote].
  - rewrite Z.sub_0_r. exact Hcs.
  - replace (d - Z.of_nat (S n)) with (d - 1 - Z.of_nat n) by lia.
    apply IH; [lia | lia |]. apply Hstep; [lia | exact Hcs].
Qed.

Lemma renorm_depth s : depth (renorm s) = depth s.
Proof. reflexivity. Qed.

Lemma renorm_cached s : cached (renorm s) = false.
Proof. reflexivity. Qed.

(* _renorm is that loop over the levels depth, ..., renorm_stop + 1 of the demoted cells *)
Lemma renorm_inv (I : Z -> list cell -> Prop) s :
  (forall d cs, renorm_stop < d <= depth s -> I d cs -> I (d - 1) (promote_level d cs)) ->
  I (depth s) (demoted_cells (depth s) (cells s)) ->
  exists d, d <= renorm_stop /\ I d (cells (renorm s)).
Proof.
  intros Hstep H0. unfold renorm. cbn [cells depth]. rewrite renorm_from_eq.
  exists (depth s - Z.of_nat (Z.to_nat (depth s - renorm_stop))). split; [lia|].
  apply (promote_inv I renorm_stop (depth s) Hstep); [lia | lia | exact H0].
Qed.

Lemma renorm_absP s q : absP (renorm s) q <-> absP s q.
Proof.
  destruct (renorm_inv (fun _ cs => cover_set (depth s) cs q <-> absP s q) s) as [_ [_ H]].
  - intros d cs Hd <-. apply promote_level_cover. lia.
  - apply demoted_cover.
  - exact H.
Qed.

Lemma renorm_valid s : valid s -> valid (renorm s).
Proof.
  intros [HD Hv]. split; [exact HD|]. rewrite renorm_depth.
  destruct (renorm_inv (fun _ => Forall (vcell (depth s))) s) as [_ [_ H]]; [| |exact H].
  - intros d cs Hd. apply promote_level_valid. rewrite renorm_stop_eq in Hd. lia.
  - apply demoted_valid; assumption.
Qed.

Lemma renorm_Inv s : valid s -> Inv (renorm s).
Proof.
  intros Hv. split; [apply renorm_valid; exact Hv|].
  intros Hc. rewrite renorm_cached in Hc. discriminate.
Qed.

Lemma renorm_no_overlap s : valid s -> no_overlap (renorm s).
Proof.
  intros [HD Hv]. rewrite no_overlap_nov, renorm_depth.
  destruct (renorm_inv (fun _ => nov (depth s)) s) as [_ [_ H]]; [| |exact H].
  - intros d cs Hd. apply promote_level_nov. lia.
  - apply flat_nov, demoted_flat; assumption.
Qed.

Lemma renorm_no_mergeable s : valid s -> no_mergeable (renorm s).
Proof.
  intros [HD Hv].
  destruct (renorm_inv (fun d cs => forall e p, d < e -> ~ compl e cs p) s) as [d [Hd H]].
  - intros d cs Hd Hcs e p He Hp. destruct (Z.eq_dec e d) as [->|Hne].
    + exact (promote_level_nomerge d cs p Hp).
    + apply (Hcs e p); [lia|]. unfold compl in *. rewrite !promote_level_kept in Hp by lia. tauto.
  - intros e p He [_ [H0 _]]. apply (demoted_flat _ _ HD Hv) in H0. cbn [fst] in H0. lia.
  - intros e p He Hmod H0 H1 H2 H3. apply (H e p); [lia|]. unfold compl. tauto.
Qed.

Lemma add_pixels_eq s d ps :
  add_pixels s d ps = mkRegion (depth s) (at_level d ps ++ cells s) false.
Proof. unfold add_pixels, add_pixels_with. rewrite add_pixels_resets_cache_eq. reflexivity. Qed.

Lemma add_pixels_depth s d ps : depth (add_pixels s d ps) = depth s.
Proof. rewrite add_pixels_eq. reflexivity. Qed.

Lemma add_pixels_cells s d ps : cells (add_pixels s d ps) = at_level d ps ++ cells s.
Proof. rewrite add_pixels_eq. reflexivity. Qed.

Lemma add_pixels_valid s d ps : valid s -> 1 <= d <= depth s ->
  Forall (fun p => 0 <= p < 12 * 4 ^ d) ps -> valid (add_pixels s d ps).
Proof.
  intros [HD Hv] Hd Hps. rewrite add_pixels_eq. split; cbn [depth cells]; [exact HD|].
  apply Forall_app. split; [|exact Hv]. unfold at_level. apply Forall_map.
  revert Hps. apply Forall_impl. intros p Hp. split; [exact Hd | exact Hp].
Qed.

Lemma add_pixels_absP s d ps q :
  absP (add_pixels s d ps) q <-> absP s q \/ cover_set (depth s) (at_level d ps) q.
Proof. rewrite add_pixels_eq, absP_mk, cover_set_app. unfold absP. tauto. Qed.

Definition union_finer (s o : region) : list cell :=
  if depth s <? depth o
  then filter (fun c => (depth s <? fst c) && (fst c <=? depth o)) (cells o)
  else [].
Definition union_common (s o : region) : list cell :=
  filter (fun c => (1 <=? fst c) && (fst c <=? Z.min (depth s) (depth o))) (cells o).
Definition union_pre (s o : region) : region :=
  mkRegion (depth s)
    (map (fun c => (depth s, degrade (snd c) (fst c) (depth s))) (union_finer s o)
       ++ union_common s o ++ cells s) false.

Lemma union_eq s o r : union s o r = if r then renorm (union_pre s o) else union_pre s o.
Proof.
  unfold union, union_pre, union_finer, union_common. rewrite add_pixels_resets_cache_eq.
  reflexivity.
Qed.

Lemma in_union_finer s o c :
  In c (union_finer s o) <-> In c (cells o) /\ depth s < fst c <= depth o.
Proof.
  unfold union_finer. destruct (Z.ltb_spec (depth s) (depth o)) as [Hlt|Hge].
  - rewrite filter_In, andb_true_iff, Z.ltb_lt, Z.leb_le. tauto.
  - cbn [In]. lia.
Qed.

Lemma in_union_common s o c :
  In c (union_common s o) <-> In c (cells o) /\ 1 <= fst c <= Z.min (depth s) (depth o).
Proof. unfold union_common. rewrite filter_In, andb_true_iff, !Z.leb_le. tauto. Qed.

Lemma union_pre_absP s o q : valid o ->
  (absP (union_pre s o) q <-> absP s q \/ cover_set (depth s) (cells o) q).
Proof.
  intros [HDo Hvo]. unfold union_pre. rewrite absP_mk, !cover_set_app, cover_set_map.
  set (D := depth s).
  assert (Hiff : (exists c, In c (union_finer s o) /\ cover D (D, degrade (snd c) (fst c) D) q) \/
                 cover_set D (union_common s o) q <-> cover_set D (cells o) q);
    [|unfold absP; tauto].
  split.
  - intros [[[d p] [Hc Hq]]|[c [Hc Hq]]].
    + apply in_union_finer in Hc. exists (d, p). split; [apply Hc|].
      apply cover_degrade; [apply Hc | exact Hq].
    + apply in_union_common in Hc. exists c. tauto.
  - intros [[d p] [Hc Hq]].
    pose proof (vcells_in _ _ _ Hvo Hc) as [Hlev _]. cbn [fst] in Hlev.
    destruct (Z_le_gt_dec d D) as [Hle|Hgt]; [right|left]; exists (d, p).
    + split; [|exact Hq]. apply in_union_common. cbn [fst]. fold D. split; [exact Hc | lia].
    + split; [apply in_union_finer; cbn [fst]; fold D; split; [exact Hc | lia]|].
      cbn [fst snd]. apply cover_degrade; [lia | exact Hq].
Qed.

(* every cell of union_pre covers pixels of the operand or is a cell of s, so validity is inherited *)
Lemma union_pre_valid s o : valid s -> valid o -> valid (union_pre s o).
Proof.
  intros [HD Hv] [HDo Hvo]. split; cbn [union_pre depth cells]; [exact HD|].
  apply Forall_app. split; [|apply Forall_app; split; [|exact Hv]].
  - apply Forall_map, Forall_forall. intros [d p] Hc.
    apply in_union_finer in Hc. destruct Hc as [Hc Hlev].
    apply (cover_vcell _ (depth o) (d, p)); [exact HD | exact (vcells_in _ _ _ Hvo Hc) |].
    apply cover_degrade; [apply Hlev | apply cover_top; reflexivity].
  - apply Forall_forall. intros c Hc. apply in_union_common in Hc. destruct Hc as [Hc Hlev].
    pose proof (vcells_in _ _ _ Hvo Hc) as [_ Hpix]. split; [lia | exact Hpix].
Qed.

Lemma union_absP s o r q : valid o ->
  (absP (union s o r) q <-> absP s q \/ cover_set (depth s) (cells o) q).
Proof.
  intros Ho. rewrite union_eq. destruct r; [rewrite renorm_absP|]; apply union_pre_absP; exact Ho.
Qed.

Definition setop_pre (f : list Z -> list Z -> list Z) (s o : region) : region :=
  let s1 := demote_all s in
  let D := depth s in
  mkRegion D (at_level D (f (level (cells s1) D) (other_demoted o))
                ++ filter (fun c => negb (fst c =? D)) (cells s1)) (cached s1).

Lemma setop_some f s o : depth o = depth s -> setop f s o = Some (renorm (setop_pre f s o)).
Proof. intros E. unfold setop. rewrite E, Z.eqb_refl. reflexivity. Qed.

Lemma setop_none f s o : depth o <> depth s -> setop f s o = None.
Proof.
  intros E. unfold setop. destruct (Z.eqb_spec (depth s) (depth o)) as [E'|_]; [congruence | reflexivity].
Qed.

Lemma setop_pre_absP f s o q : Inv s ->
  (absP (setop_pre f s o) q <->
   In q (f (level (cells (demote_all s)) (depth s)) (other_demoted o))).
Proof.
  intros HI. unfold setop_pre. rewrite absP_mk, cover_set_app, cover_set_at_top.
  split; [intros [H|[c [Hc _]]] | tauto]; [exact H|].
  apply filter_In in Hc. destruct Hc as [Hc Hne]. apply (demote_all_flat s HI) in Hc.
  rewrite Hc, Z.eqb_refl in Hne. discriminate.
Qed.

(* a result pixel comes from one of the operands, and their pixels are in range *)
Lemma setop_pre_valid f s o : Inv s -> Inv o -> depth o = depth s ->
  (forall a b x, In x (f a b) -> In x a \/ In x b) -> valid (setop_pre f s o).
Proof.
  intros HI HIo E Hsub. pose proof (demote_all_valid s ltac:(apply HI)) as [HD Hv].
  rewrite demote_all_depth in HD, Hv.
  split; cbn [setop_pre depth cells]; [exact HD|].
  apply Forall_app. split; [|apply (incl_Forall (incl_filter _ _) Hv)].
  unfold at_level. apply Forall_map, Forall_forall. intros x Hx.
  apply Hsub in Hx. destruct Hx as [Hx|Hx].
  - apply (absP_vcell s); [apply HI|]. apply demote_all_level_absP; assumption.
  - rewrite <- E. apply (absP_vcell o); [apply HIo|]. apply get_demoted_spec; assumption.
Qed.

Lemma in_f_without a b x : In x (f_without a b) <-> In x a /\ ~ In x b.
Proof. unfold f_without. rewrite filter_In, negb_true_iff, <- not_true_iff_false, memZ_spec. tauto. Qed.

Lemma in_f_intersect a b x : In x (f_intersect a b) <-> In x a /\ In x b.
Proof. unfold f_intersect. rewrite filter_In, memZ_spec. tauto. Qed.

Lemma in_f_symdiff a b x :
  In x (f_symdiff a b) <-> (In x a /\ ~ In x b) \/ (In x b /\ ~ In x a).
Proof. unfold f_symdiff. rewrite in_app_iff, !in_f_without. tauto. Qed.

(* what one operation owes: the invariant and the depth; the pixel set and the answer the
   specification prescribes; the normal form if Python renormalises *)
Definition step_ok (s : region) (o : op) (t : region * out) : Prop :=
  (Inv (fst t) /\ depth (fst t) = depth s) /\
  ((forall q, absP (fst t) q <-> spec_step (depth s) (absP s) o q) /\
   spec_out (depth s) (absP s) o (snd t)) /\
  (renormalises (depth s) o = true -> no_overlap (fst t) /\ no_mergeable (fst t)).

Lemma renorm_step_ok s o s1 r : valid s1 -> depth s1 = depth s ->
  (forall q, absP s1 q <-> spec_step (depth s) (absP s) o q) -> spec_out (depth s) (absP s) o r ->
  step_ok s o (renorm s1, r).
Proof.
  intros Hv HD Habs Hout. unfold step_ok. cbn [fst snd].
  split; [split; [apply renorm_Inv; exact Hv | exact HD]|].
  split; [split; [intros q; rewrite renorm_absP; apply Habs | exact Hout]|].
  intros _. split; [apply renorm_no_overlap | apply renorm_no_mergeable]; exact Hv.
Qed.

Lemma plain_step_ok s o s1 r : Inv s1 -> depth s1 = depth s ->
  (forall q, absP s1 q <-> spec_step (depth s) (absP s) o q) -> spec_out (depth s) (absP s) o r ->
  renormalises (depth s) o = false -> step_ok s o (s1, r).
Proof.
  intros HI HD Habs Hout Hren. unfold step_ok. rewrite Hren. cbn [fst snd].
  split; [split; assumption|]. split; [split; assumption | discriminate].
Qed.

(* One statement for the three set operations: o is the operation with operand r in which f computes,
   on lists, the connective P of the two memberships (the three premises that mention o hold by
   computation).  With equal depths the new region is _renorm of a well-formed one whose pixel set is
   P of the operands' pixel sets; otherwise the state is kept and the answer is an error. *)
Lemma setop_sound f (P : Prop -> Prop -> Prop) s r o :
  (forall a b x, In x (f a b) <-> P (In x a) (In x b)) ->
  (forall A B, P A B -> A \/ B) ->
  (forall A A' B B', (A <-> A') -> (B <-> B') -> (P A B <-> P A' B')) ->
  (forall A q, spec_step (depth s) A o q <-> if depth r =? depth s then P (A q) (absP r q) else A q) ->
  (forall A t, spec_out (depth s) A o t <-> if depth r =? depth s then t = OUnit else t = OErr) ->
  renormalises (depth s) o = (depth r =? depth s) ->
  Inv s -> Inv r ->
  step_ok s o (match setop f s r with Some s' => (s', OUnit) | None => (s, OErr) end).
Proof.
  intros Hf Hor Hext.
  destruct (Z.eqb_spec (depth r) (depth s)) as [E|E]; intros Hstep Hout Hren HI HIr.
  - rewrite (setop_some f s r E). apply renorm_step_ok; [|reflexivity| |apply Hout; reflexivity].
    + apply setop_pre_valid; try assumption. intros a b x Hx. apply Hf in Hx. apply Hor. exact Hx.
    + intros q. rewrite Hstep, setop_pre_absP, Hf by exact HI.
      apply Hext; [apply demote_all_level_absP | apply get_demoted_spec]; assumption.
  - rewrite (setop_none f s r E).
    apply plain_step_ok; [exact HI | reflexivity | symmetry; apply Hstep | apply Hout; reflexivity | exact Hren].
Qed.

Lemma step_within s qs :
  step s (Within qs) =
  (demote_all s, OBools (map (fun q => memZ q (snd (get_demoted s))) qs)).
Proof. reflexivity. Qed.

Lemma step_get_demoted s : step s GetDemoted = (demote_all s, OPix (snd (get_demoted s))).
Proof. reflexivity. Qed.

Theorem step_sound : forall s o, Inv s -> op_ok (depth s) o -> step_ok s o (step s o).
Proof.
  intros s o HI Hok. pose proof HI as [Hv Hc].
  destruct o as [d ps|d ps|r b|r|r|r|qs| | | | | ]; cbn [op_ok] in Hok.
  - (* AddPixels *) destruct Hok as [Hd Hps]. cbn [step].
    apply plain_step_ok; [split | apply add_pixels_depth | apply add_pixels_absP | exact I | reflexivity].
    + apply add_pixels_valid; assumption.
    + rewrite add_pixels_eq. discriminate.
  - (* AddShape *) destruct Hok as [Hd Hps]. cbn [step].
    apply renorm_step_ok; [apply add_pixels_valid; assumption | apply add_pixels_depth | | exact I].
    apply add_pixels_absP.
  - (* Union *) cbn [step]. rewrite union_eq.
    pose proof (union_pre_valid s r Hv Hok) as Hv'.
    pose proof (fun q => union_pre_absP s r q Hok) as Habs. destruct b.
    + apply renorm_step_ok; [exact Hv' | reflexivity | exact Habs | exact I].
    + apply plain_step_ok; [split; [exact Hv' | discriminate] | reflexivity | exact Habs | exact I | reflexivity].
  - (* Without *)
    apply (setop_sound f_without (fun A B => A /\ ~ B) s r _ in_f_without);
      [tauto | tauto | reflexivity | reflexivity | reflexivity | exact HI | exact Hok].
  - (* Intersect *)
    apply (setop_sound f_intersect and s r _ in_f_intersect);
      [tauto | tauto | reflexivity | reflexivity | reflexivity | exact HI | exact Hok].
  - (* SymDiff *)
    apply (setop_sound f_symdiff (fun A B => (A /\ ~ B) \/ (B /\ ~ A)) s r _ in_f_symdiff);
      [tauto | tauto | reflexivity | reflexivity | reflexivity | exact HI | exact Hok].
  - (* Within *) rewrite step_within.
    apply plain_step_ok;
      [apply demote_all_Inv; exact HI | apply demote_all_depth | intros q; apply demote_all_absP | | reflexivity].
    eexists. split; [reflexivity|]. split; [apply map_length|].
    intros i q b Hq Hb. rewrite (map_nth_error _ i qs Hq) in Hb. injection Hb as <-.
    rewrite memZ_spec. apply get_demoted_spec. exact HI.
  - (* GetDemoted *) rewrite step_get_demoted.
    apply plain_step_ok;
      [apply demote_all_Inv; exact HI | apply demote_all_depth | intros q; apply demote_all_absP | | reflexivity].
    eexists. split; [reflexivity|]. intros q. apply get_demoted_spec. exact HI.
  - (* GetArea: the state is returned as it is, and nothing is specified of the answer *)
    apply plain_step_ok; [exact HI | reflexivity | reflexivity | exact I | reflexivity].
  - (* Uniq: likewise *)
    apply plain_step_ok; [exact HI | reflexivity | reflexivity | exact I | reflexivity].
  - (* SaveLoad: likewise *)
    apply plain_step_ok; [exact HI | reflexivity | reflexivity | exact I | reflexivity].
  - (* Renorm *) apply renorm_step_ok; [exact Hv | reflexivity | reflexivity | exact I].
Qed.

Theorem step_inv : forall s o, Inv s -> op_ok (depth s) o ->
  Inv (fst (step s o)) /\ depth (fst (step s o)) = depth s.
Proof. intros s o HI Hok. apply (step_sound s o HI Hok). Qed.

Theorem normal_form : forall s o, Inv s -> op_ok (depth s) o -> renormalises (depth s) o = true ->
  no_overlap (fst (step s o)) /\ no_mergeable (fst (step s o)).
Proof. intros s o HI Hok. apply (step_sound s o HI Hok). Qed.

Lemma spec_step_ext D A A' o : (forall q, A q <-> A' q) ->
  forall q, spec_step D A o q <-> spec_step D A' o q.
Proof.
  intros HA q. destruct o as [d ps|d ps|r b|r|r|r|qs| | | | | ]; cbn [spec_step];
    try (destruct (depth r =? D)); rewrite ?HA; tauto.
Qed.

Lemma run_cons s o ops : run s (o :: ops) = run (fst (step s o)) ops.
Proof. reflexivity. Qed.

Lemma run_refines D ops : forall s A, Inv s -> depth s = D -> Forall (op_ok D) ops ->
  (forall q, absP s q <-> A q) ->
  (Inv (run s ops) /\ depth (run s ops) = D) /\
  forall q, absP (run s ops) q <-> fold_left (spec_step D) ops A q.
Proof.
  induction ops as [|o ops IH]; intros s A HI HD Hops HA.
  - cbn [run fold_left]. tauto.
  - rewrite run_cons. cbn [fold_left].
    apply Forall_cons_iff in Hops. destruct Hops as [Ho Hops]. rewrite <- HD in Ho.
    destruct (step_sound s o HI Ho) as [[HI' HD'] [[Habs _] _]].
    apply IH; [exact HI' | congruence | exact Hops |].
    intros q. rewrite Habs, HD. apply spec_step_ext. exact HA.
Qed.

Lemma init_Inv D : 1 <= D -> Inv (init D).
Proof.
  intros HD. split; [split; [exact HD | apply Forall_nil]|]. intros E. discriminate E.
Qed.

Lemma run_Inv D ops s : Inv s -> depth s = D -> Forall (op_ok D) ops ->
  Inv (run s ops) /\ depth (run s ops) = D.
Proof. intros HI HD Hops. apply (run_refines D ops s (absP s) HI HD Hops). tauto. Qed.

Theorem reachable_inv : forall D ops, 1 <= D -> Forall (op_ok D) ops ->
  Inv (run (init D) ops) /\ depth (run (init D) ops) = D.
Proof. intros D ops HD. apply run_Inv; [apply init_Inv; exact HD | reflexivity]. Qed.

Theorem history_refines : forall D ops, 1 <= D -> Forall (op_ok D) ops ->
  forall q, absP (run (init D) ops) q <-> fold_left (spec_step D) ops (fun _ => False) q.
Proof.
  intros D ops HD Hops.
  apply (run_refines D ops (init D) (fun _ => False) (init_Inv D HD) eq_refl Hops).
  intros q. apply absP_init.
Qed.

Theorem queries_pure : forall s o, Inv s ->
  match o with Within _ | GetDemoted | GetArea | Uniq | SaveLoad => True | _ => False end ->
  (forall q, absP (fst (step s o)) q <-> absP s q) /\
  (no_overlap s -> no_overlap (fst (step s o))).
Proof.
  intros s o HI Hq.
  assert (Hdem : (forall q, absP (demote_all s) q <-> absP s q) /\
                 (no_overlap s -> no_overlap (demote_all s)))
    by (split; [intros q; apply demote_all_absP | apply demote_all_no_overlap; exact HI]).
  destruct o; try contradiction.
  - (* Within demotes the state *) rewrite step_within. exact Hdem.
  - (* GetDemoted too *) rewrite step_get_demoted. exact Hdem.
  - (* GetArea returns it as it is *) cbn [step fst]. tauto.
  - (* Uniq *) cbn [step fst]. tauto.
  - (* SaveLoad *) cbn [step fst]. tauto.
Qed.

Lemma in_zrange n : forall lo d, In d (zrange lo n) <-> lo <= d < lo + Z.of_nat n.
Proof.
  induction n as [|n IH]; intros lo d; cbn [zrange In]; [lia|].
  rewrite IH. lia.
Qed.

Lemma NoDup_zrange n : forall lo, NoDup (zrange lo n).
Proof.
  induction n as [|n IH]; intros lo; cbn [zrange]; constructor; [|apply IH].
  rewrite in_zrange. lia.
Qed.

Lemma expand_disjoint k p p' z : In z (expand k p) -> In z (expand k p') -> p = p'.
Proof. rewrite !expand_div. congruence. Qed.

Lemma NoDup_expand k : forall p, NoDup (expand k p).
Proof.
  induction k as [|k IH]; intros p; cbn [expand]; [repeat constructor; cbn [In]; tauto|].
  apply NoDup_flat_map_intro; [| intros c _; apply IH | intros c c' z _ _; apply expand_disjoint].
  rewrite children_eq. repeat constructor; cbn [In]; lia.
Qed.

Lemma length_expand k : forall p, Z.of_nat (length (expand k p)) = 4 ^ Z.of_nat k.
Proof.
  induction k as [|k IH]; intros p; cbn [expand]; [reflexivity|].
  rewrite Nat2Z.inj_succ, <- Z.add_1_r, pow4_succ by lia.
  rewrite (length_flat_map_const _ _ (4 ^ Z.of_nat k)) by (intros c _; apply IH).
  rewrite children_eq. cbn [length]. lia.
Qed.

(* The stored cells of levels 1..D, level by level and each level without repetition: the order in
   which get_area, _uniq and write_reg go through pixeldict. *)
Definition lcells (D : Z) (cs : list cell) : list cell :=
  flat_map (fun d => at_level d (nodup Z.eq_dec (level cs d))) (zrange 1 (Z.to_nat D)).

Lemma in_lcells D cs c : In c (lcells D cs) <-> 1 <= fst c <= D /\ In c cs.
Proof.
  unfold lcells. rewrite in_flat_map. destruct c as [e p]. cbn [fst].
  setoid_rewrite in_at_level_pair. setoid_rewrite nodup_In. setoid_rewrite in_level.
  setoid_rewrite in_zrange. split.
  - intros [d [Hd [-> Hc]]]. split; [lia | exact Hc].
  - intros [Hd Hc]. exists e. split; [lia | tauto].
Qed.

Lemma NoDup_lcells D cs : NoDup (lcells D cs).
Proof.
  apply NoDup_flat_map_intro; [apply NoDup_zrange | |].
  - intros d _. apply FinFun.Injective_map_NoDup; [|apply NoDup_nodup]. intros x y E. injection E. tauto.
  - intros d1 d2 [e p] _ _ H1 H2. apply in_at_level_pair in H1. apply in_at_level_pair in H2.
    destruct H1 as [<- _]. apply H2.
Qed.

Definition pixels (D : Z) (cs : list cell) : list Z :=
  flat_map (fun c => expand (Z.to_nat (D - fst c)) (snd c)) (lcells D cs).

Lemma in_pixels D cs q : Forall (vcell D) cs -> (In q (pixels D cs) <-> cover_set D cs q).
Proof.
  intros Hv. unfold pixels, cover_set. rewrite in_flat_map.
  split; intros [[d p] [Hc Hq]]; exists (d, p); cbn [fst snd] in *.
  - apply in_lcells in Hc. destruct Hc as [Hd Hc]. apply expand_cover in Hq; [tauto | apply Hd].
  - pose proof (vcells_in _ _ _ Hv Hc) as [Hd _].
    split; [apply in_lcells; tauto | apply expand_cover; [apply Hd | exact Hq]].
Qed.

Lemma NoDup_pixels D cs : nov D cs -> NoDup (pixels D cs).
Proof.
  intros Hn. apply NoDup_flat_map_intro; [apply NoDup_lcells | intros c _; apply NoDup_expand|].
  intros [d p] [d' p'] z Hc Hc' Hz Hz'. apply in_lcells in Hc. apply in_lcells in Hc'. cbn [fst snd] in *.
  apply (Hn _ _ z); try tauto; apply expand_cover; (lia || assumption).
Qed.

Lemma length_pixels D cs :
  Z.of_nat (length (pixels D cs)) =
  fold_right Z.add 0
    (map (fun d => count_distinct (level cs d) * 4 ^ (D - d)) (zrange 1 (Z.to_nat D))).
Proof.
  unfold pixels, lcells. rewrite flat_map_flat_map, length_flat_map_sum. f_equal. apply map_ext_in.
  intros d Hd. apply in_zrange in Hd. unfold count_distinct. rewrite <- (map_length (pair d) (nodup Z.eq_dec (level cs d))).
  apply length_flat_map_const. intros c Hc. apply in_map_iff in Hc. destruct Hc as [p [<- _]].
  cbn [fst snd]. rewrite length_expand, Z2Nat.id by lia. reflexivity.
Qed.

Lemma area_units_pixels s : area_units s = Z.of_nat (length (pixels (depth s) (cells s))).
Proof.
  rewrite length_pixels. unfold area_units. rewrite area_lo_eq, area_hi_eq.
  replace (depth s + 1 - 1) with (depth s) by lia. reflexivity.
Qed.

Lemma pixels_enumerates s : valid s -> no_overlap s -> enumerates (pixels (depth s) (cells s)) (absP s).
Proof.
  intros [_ Hv] Hno. apply no_overlap_nov in Hno.
  split; [apply NoDup_pixels; exact Hno | intros q; apply in_pixels; exact Hv].
Qed.

Theorem area_is_cardinality : forall s l, Inv s -> no_overlap s -> enumerates l (absP s) ->
  area_units s = Z.of_nat (length l).
Proof.
  intros s l [Hv _] Hno [Hnd Hl]. destruct (pixels_enumerates s Hv Hno) as [Hnd' Hl'].
  rewrite area_units_pixels. f_equal. apply Permutation_length, NoDup_Permutation; [exact Hnd' | exact Hnd|].
  intros q. rewrite Hl, Hl'. tauto.
Qed.
