(* C17 (strings): the single rounding cs = int(round(x * K)) of dec2dms / dec2hms, for EVERY binary64 x.
   Coq's primitive floats are related to their IEEE-754 specification by the FloatAxioms of the standard
   library (mul_spec, abs_spec, ltb_spec, ...) and to real numbers by Flocq (Prim2B, Bmult_correct, error_N_FLT).
   Result: |cs - x*K| <= 1/2 + |x*K| * 2^-53 + 2^-1075, cs is monotone against integer bounds, and the sign test
   `x < 0` of the code is the sign of the real value. *)
From Coq Require Import ZArith Reals Lra Lia Floats SpecFloat Psatz String.
From Flocq Require Import Core Relative BinarySingleNaN PrimFloat.
From Aegean Require Import Gen.Sexagesimal Model.Sexagesimal.
Open Scope R_scope.

(* the real value of a primitive float (0 for non-finite ones) *)
Notation pfloat := Coq.Floats.PrimFloat.float.
Definition FR (x : pfloat) : R := B2R (Prim2B x).
Lemma FR_SF x : FR x = SF2R radix2 (Prim2SF x).
Proof. unfold FR, Prim2B. apply B2R_SF2B. Qed.

Lemma pow2_bpow e : (0 <= e)%Z -> IZR (2 ^ e) = bpow radix2 e.
Proof. intros H. rewrite <- (IZR_Zpower radix2) by assumption. reflexivity. Qed.

(* int(round(.)) of a finite float is within 1/2 of its value *)
Lemma rhe_mag_half m e : Rabs (IZR (rhe_mag m e) - IZR (Zpos m) * bpow radix2 e) <= 1 / 2.
Proof.
  unfold rhe_mag. destruct (Z.leb_spec 0 e) as [He|He].
  - rewrite mult_IZR, pow2_bpow by assumption.
    unfold Rminus. rewrite Rplus_opp_r, Rabs_R0. lra.
  - (* over Z: twice the distance to m/q, times q, is at most q; then divide by q once *)
    cbv zeta. set (q := (2 ^ (- e))%Z).
    assert (Hq : (0 < q)%Z) by (apply Z.pow_pos_nonneg; lia).
    assert (Hb : bpow radix2 e = / IZR q) by (unfold q; rewrite pow2_bpow, <- bpow_opp by lia; f_equal; lia).
    set (z := if (_ <? q)%Z then _ else _).
    assert (HZ : (- q <= 2 * (z * q - Z.pos m) <= q)%Z).
    { subst z. pose proof (Z.div_mod (Z.pos m) q ltac:(lia)) as Hdm. pose proof (Z.mod_pos_bound (Z.pos m) q Hq) as Hr.
      destruct (Z.ltb_spec (2 * (Z.pos m mod q)) q); [|destruct (Z.ltb_spec q (2 * (Z.pos m mod q))); [|destruct (Z.even _)]]; lia. }
    destruct HZ as [Hl Hu]. apply IZR_le in Hl, Hu. rewrite mult_IZR, minus_IZR, mult_IZR in Hl, Hu. rewrite opp_IZR in Hl.
    apply IZR_lt in Hq. rewrite Hb. apply Rabs_le.
    split; apply Rmult_le_reg_r with (IZR q); try exact Hq; rewrite Rmult_minus_distr_r, Rmult_assoc, Rinv_l by lra; lra.
Qed.

Lemma round_half_even_half f cs : round_half_even f = Some cs -> Rabs (IZR cs - FR f) <= 1 / 2.
Proof.
  unfold round_half_even. rewrite FR_SF. destruct (Prim2SF f) as [s|s| |s m e]; try discriminate.
  - intros H; inversion H. cbn. rewrite Rminus_0_r, Rabs_R0. lra.
  - intros H; injection H as <-. unfold SF2R, F2R; cbn [Fnum Fexp]. pose proof (rhe_mag_half m e) as Hh.
    destruct s; cbn [cond_Zopp].
    + assert (Hv : IZR (- rhe_mag m e) - IZR (- Z.pos m) * bpow radix2 e
                   = - (IZR (rhe_mag m e) - IZR (Z.pos m) * bpow radix2 e)).
      { rewrite !opp_IZR. ring. }
      rewrite Hv, Rabs_Ropp. exact Hh.
    + exact Hh.
Qed.

Definition rnd64 (v : R) : R := round radix2 (SpecFloat.fexp 53 1024) ZnearestE v.

(* a constant whose binary64 fields m * 2^e, read off by computation, make up the integer z *)
Lemma const_float f m e z : Prim2SF f = S754_finite false m e -> (e <= 0)%Z -> (Z.pos m = z * 2 ^ (- e))%Z ->
  FR f = IZR z /\ Model.Sexagesimal.is_finite f = true.
Proof.
  intros Hf He Hm. unfold Model.Sexagesimal.is_finite. rewrite FR_SF, Hf. split; [|reflexivity].
  unfold SF2R, F2R; cbn [Fnum Fexp cond_Zopp]. rewrite Hm, mult_IZR, pow2_bpow, Rmult_assoc, <- bpow_plus by lia.
  replace (- e + e)%Z with 0%Z by lia. apply Rmult_1_r.
Qed.
(* the two scales: an integer below 2^53 is a binary64 number, its mantissa the integer shifted left until it fills
   53 bits (2^18 <= 360000 < 2^19, 2^14 <= 24000 < 2^15); that float_of_Z yields these fields is read off *)
Lemma const_dms : FR (float_of_Z dms_scale) = 360000 /\ Model.Sexagesimal.is_finite (float_of_Z dms_scale) = true.
Proof. apply (const_float _ (360000 * 2 ^ 34)%positive (-34)); [vm_compute; reflexivity|lia|reflexivity]. Qed.
Lemma const_hms : FR (float_of_Z hms_scale) = 24000 /\ Model.Sexagesimal.is_finite (float_of_Z hms_scale) = true.
Proof. apply (const_float _ (24000 * 2 ^ 38)%positive (-38)); [vm_compute; reflexivity|lia|reflexivity]. Qed.

Lemma FR_mul (a c : pfloat) :
  BinarySingleNaN.is_finite (Prim2B a) = true -> BinarySingleNaN.is_finite (Prim2B c) = true ->
  Rabs (FR a * FR c) <= bpow radix2 1020 ->
  FR (a * c)%float = rnd64 (FR a * FR c) /\ BinarySingleNaN.is_finite (Prim2B (a * c)%float) = true.
Proof.
  intros Ha Hc Hb. unfold FR in *. rewrite mul_equiv.
  pose proof (Bmult_correct _ _ Hprec Hmax mode_NE (Prim2B a) (Prim2B c)) as H.
  rewrite Rlt_bool_true in H.
  - destruct H as (H1 & H2 & _). split; [exact H1|]. rewrite H2, Ha, Hc. reflexivity.
  - apply Rle_lt_trans with (bpow radix2 1020); [|apply bpow_lt; reflexivity].
    apply abs_round_le_generic; [apply fexp_correct; exact Hprec | auto with typeclass_instances | | exact Hb].
    apply generic_format_bpow. cbv. discriminate.
Qed.

Lemma finite_model x : Model.Sexagesimal.is_finite x = BinarySingleNaN.is_finite (Prim2B x).
Proof.
  rewrite <- is_finite_SF_B2SF, B2SF_Prim2B. unfold Model.Sexagesimal.is_finite.
  destruct (Prim2SF x); reflexivity.
Qed.

(* error of one rounding to binary64: relative 2^-53 plus the subnormal quantum *)
Definition u64 : R := / 2 * bpow radix2 (-52).
Definition eta64 : R := / 2 * bpow radix2 (-1074).
Lemma rnd64_FLT v : rnd64 v = round radix2 (FLT_exp (-1074) 53) ZnearestE v.
Proof. reflexivity. Qed.
Lemma rnd64_err v : Rabs (rnd64 v - v) <= Rabs v * u64 + eta64.
Proof.
  rewrite rnd64_FLT.
  destruct (error_N_FLT radix2 (-1074) 53 ltac:(lia) (fun x => negb (Z.even x)) v) as (eps & eta & He & Ht & _ & Hr).
  change (Znearest (fun x => negb (Z.even x))) with ZnearestE in Hr. rewrite Hr.
  replace (v * (1 + eps) + eta - v) with (v * eps + eta) by ring.
  eapply Rle_trans; [apply Rabs_triang|]. rewrite Rabs_mult.
  change (-53 + 1)%Z with (-52)%Z in He. fold u64 in He. fold eta64 in Ht.
  apply Rplus_le_compat; [|exact Ht]. apply Rmult_le_compat_l; [apply Rabs_pos | exact He].
Qed.

(* rounding is monotone and leaves the integers below 2^53 alone, so it respects integer bounds *)
Lemma rnd64_le u v : u <= v -> rnd64 u <= rnd64 v.
Proof. rewrite !rnd64_FLT. apply round_le; [apply FLT_exp_valid; reflexivity | auto with typeclass_instances]. Qed.
Lemma rnd64_int n : (Z.abs n < 2 ^ 53)%Z -> rnd64 (IZR n) = IZR n.
Proof.
  intros Hn. rewrite rnd64_FLT. apply round_generic; [auto with typeclass_instances|].
  apply generic_format_FLT. exists (Float radix2 n 0); cbn [Fnum Fexp]; [unfold F2R; cbn; ring|exact Hn|lia].
Qed.

(* cs = int(round(a * c)) for finite a, a constant c of value K <= 2^20, no overflow *)
Section Rounding.
  Variables (a c : pfloat) (K : R) (cs : Z).
  Hypothesis Hfa : Model.Sexagesimal.is_finite a = true.
  Hypothesis Hfc : Model.Sexagesimal.is_finite c = true.
  Hypothesis HK : FR c = K.
  Hypothesis HK0 : 0 <= K <= 1048576.
  Hypothesis Hbig : Rabs (FR a) <= bpow radix2 1000.
  Hypothesis Hcs : round_half_even (a * c)%float = Some cs.

  Lemma product_value : FR (a * c)%float = rnd64 (FR a * K).
  Proof.
    destruct (FR_mul a c) as [H _].
    - rewrite <- finite_model. exact Hfa.
    - rewrite <- finite_model. exact Hfc.
    - rewrite HK, Rabs_mult, (Rabs_right K) by lra.
      apply Rle_trans with (bpow radix2 1000 * bpow radix2 20).
      + apply Rmult_le_compat; [apply Rabs_pos | lra | exact Hbig |].
        change (bpow radix2 20) with 1048576. lra.
      + rewrite <- bpow_plus. apply bpow_le. lia.
    - rewrite H, HK. reflexivity.
  Qed.

  Lemma rounded_near : Rabs (IZR cs - rnd64 (FR a * K)) <= 1 / 2.
  Proof. rewrite <- product_value. exact (round_half_even_half _ _ Hcs). Qed.

  Lemma rounding_spec : Rabs (IZR cs - FR a * K) <= 1 / 2 + (Rabs (FR a * K) * u64 + eta64).
  Proof.
    pose proof rounded_near as H1. pose proof (rnd64_err (FR a * K)) as H2.
    set (v := FR a * K) in *. set (p := rnd64 v) in *.
    replace (IZR cs - v) with ((IZR cs - p) + (p - v)) by ring.
    eapply Rle_trans; [apply Rabs_triang|]. lra.
  Qed.

  (* cs respects the integer bounds of the exact product: rounding to binary64 is monotone and leaves n alone,
     and cs is within 1/2 of the rounded product *)
  Lemma rounding_mono n : (Z.abs n < 2 ^ 53)%Z ->
    (FR a * K <= IZR n -> (cs <= n)%Z) /\ (IZR n <= FR a * K -> (n <= cs)%Z).
  Proof.
    intros Hn. pose proof (Rabs_le_inv _ _ rounded_near) as H1.
    split; intros Hv; apply rnd64_le in Hv; rewrite (rnd64_int n Hn) in Hv.
    - apply Z.lt_succ_r, lt_IZR. rewrite succ_IZR. lra.
    - apply Z.lt_pred_le, lt_IZR. unfold Z.pred. rewrite plus_IZR. lra.
  Qed.
End Rounding.

Lemma ltb_zero x : Model.Sexagesimal.is_finite x = true ->
  PrimFloat.ltb x PrimFloat.zero = (if Rlt_dec (FR x) 0 then true else false).
Proof.
  intros Hf. assert (Hz : Prim2B PrimFloat.zero = B754_zero false) by (rewrite zero_equiv; apply Prim2B_B2Prim).
  rewrite ltb_equiv, Bltb_correct, Hz by (rewrite ?Hz, <- ?finite_model; auto).
  cbn [B2R]. fold (FR x). destruct (Rlt_bool_spec (FR x) 0), (Rlt_dec (FR x) 0); try reflexivity; lra.
Qed.

Lemma FR_abs x : FR (PrimFloat.abs x) = Rabs (FR x).
Proof. unfold FR. rewrite abs_equiv. apply B2R_Babs. Qed.
Lemma finite_abs x : Model.Sexagesimal.is_finite (PrimFloat.abs x) = Model.Sexagesimal.is_finite x.
Proof. rewrite !finite_model, abs_equiv. apply is_finite_Babs. Qed.

(* dec2dms: for every finite binary64 x (|x| <= 2^1000, so that x * 360000 cannot overflow) *)
Theorem dms_hundredths_spec (x : pfloat) (cs : Z) :
  Model.Sexagesimal.is_finite x = true -> Rabs (FR x) <= bpow radix2 1000 -> dms_hundredths x = Some cs ->
  Rabs (IZR cs - Rabs (FR x) * 360000) <= 1 / 2 + (Rabs (FR x) * 360000 * u64 + eta64) /\
  (0 <= cs)%Z /\
  (forall n : Z, (Z.abs n < 2 ^ 53)%Z -> Rabs (FR x) * 360000 <= IZR n -> (cs <= n)%Z).
Proof.
  intros Hf Hb Hcs. unfold dms_hundredths in Hcs. destruct const_dms as [HK Hfc].
  assert (Hfa : Model.Sexagesimal.is_finite (PrimFloat.abs x) = true) by (rewrite finite_abs; exact Hf).
  assert (Hba : Rabs (FR (PrimFloat.abs x)) <= bpow radix2 1000) by (rewrite FR_abs, Rabs_Rabsolu; exact Hb).
  assert (HK0 : 0 <= 360000 <= 1048576) by lra.
  pose proof (rounding_spec _ _ _ _ Hfa Hfc HK HK0 Hba Hcs) as H1.
  pose proof (rounding_mono _ _ _ _ Hfa Hfc HK HK0 Hba Hcs) as H2.
  rewrite FR_abs in H1, H2.
  assert (H0 : 0 <= Rabs (FR x) * 360000) by (apply Rmult_le_pos; [apply Rabs_pos | lra]).
  rewrite (Rabs_right (Rabs (FR x) * 360000)) in H1 by (apply Rle_ge, H0).
  split; [exact H1|]. split; [apply (H2 0%Z); [reflexivity|exact H0]|]. intros n Hn. apply (H2 n Hn).
Qed.

(* dec2hms: in terms of the wrapped value x' = (x + 360 if x < 0 else x), itself a binary64 *)
Theorem hms_hundredths_spec (x : pfloat) (cs : Z) :
  Model.Sexagesimal.is_finite (hms_wrapped x) = true -> Rabs (FR (hms_wrapped x)) <= bpow radix2 1000 ->
  hms_hundredths x = Some cs ->
  Rabs (IZR cs - FR (hms_wrapped x) * 24000) <= 1 / 2 + (Rabs (FR (hms_wrapped x) * 24000) * u64 + eta64).
Proof.
  intros Hf Hb Hcs. unfold hms_hundredths in Hcs.
  destruct const_hms as [HK Hfc]. apply (rounding_spec _ _ _ _ Hf Hfc HK); [lra|exact Hb|exact Hcs].
Qed.
Lemma hms_wrapped_nonneg x : Model.Sexagesimal.is_finite x = true -> 0 <= FR x -> hms_wrapped x = x.
Proof.
  intros Hf Hx. unfold hms_wrapped. rewrite (ltb_zero x Hf). destruct (Rlt_dec (FR x) 0); [lra | reflexivity].
Qed.

Lemma u64_val : u64 = / 9007199254740992.
Proof.
  unfold u64. change (bpow radix2 (-52)) with (/ 4503599627370496). field.
Qed.
Lemma eta64_le_u64 : 0 < eta64 <= u64.
Proof.
  unfold eta64, u64. pose proof (bpow_gt_0 radix2 (-1074)) as H0.
  assert (H1 : bpow radix2 (-1074) <= bpow radix2 (-52)) by (apply bpow_le; lia). lra.
Qed.

From Aegean Require Import Proofs.SexagesimalProofs.

Lemma c17_dms_binary64 (x : pfloat) (cs : Z) :
  Model.Sexagesimal.is_finite x = true -> Rabs (FR x) <= bpow radix2 1000 -> dms_hundredths x = Some cs ->
  (* format then parse: half a unit of the last digit + the round-off of the one product *)
  Rabs (parse_dms (PrimFloat.ltb x PrimFloat.zero) (dms_split cs) - FR x)
    <= (5 / 1000 + (Rabs (FR x) * 360000 * u64 + eta64) / 100) / 3600 /\
  (let '(d, m, s, c) := dms_split cs in
   (0 <= d)%Z /\
   (Rabs (FR x) <= 90 -> (d <= 90)%Z /\ (d = 90%Z -> m = 0%Z /\ s = 0%Z /\ c = 0%Z)) /\
   (Rabs (FR x) <= 360 -> (d <= 360)%Z /\ (d = 360%Z -> m = 0%Z /\ s = 0%Z /\ c = 0%Z))).
Proof.
  intros Hf Hb Hcs. destruct (dms_hundredths_spec x cs Hf Hb Hcs) as (H1 & H0 & Hle).
  split.
  - rewrite (ltb_zero x Hf). apply (proj1 c17_roundtrip_half_unit). rewrite dms_scale_eq. exact H1.
  - destruct (c17_fields_in_range cs) as (_ & Hd & _). specialize (Hd H0). destruct (dms_split cs) as [[[d m] s] c].
    destruct Hd as (Hd0 & Hd90 & Hd360). split; [exact Hd0|]. split; intros Hx.
    + apply Hd90, Hle; [reflexivity|]. rewrite mult_IZR. lra.
    + apply Hd360, Hle; [reflexivity|]. rewrite mult_IZR. lra.
Qed.

Lemma c17_hms_binary64 (x : pfloat) (cs : Z) :
  Model.Sexagesimal.is_finite (hms_wrapped x) = true -> Rabs (FR (hms_wrapped x)) <= bpow radix2 1000 ->
  hms_hundredths x = Some cs ->
  let x' := FR (hms_wrapped x) in
  exists k : Z,
    Rabs (parse_hms (hms_split cs) + 360 * IZR k - x') <= (5 / 1000 + (Rabs (x' * 24000) * u64 + eta64) / 100) / 3600 * 15 /\
    (0 <= x' <= 360 -> (k = 0 \/ k = 1)%Z).
Proof.
  intros Hf Hb Hcs x'. pose proof (hms_hundredths_spec x cs Hf Hb Hcs) as H1. fold x' in H1.
  destruct (proj2 c17_roundtrip_half_unit x' (Rabs (x' * 24000) * u64 + eta64) cs) as (k & Hk1 & Hk2).
  - rewrite hms_scale_eq. exact H1.
  - exists k. split; [exact Hk1|]. intros Hx. apply Hk2; [exact Hx|].
    rewrite Rabs_right by nra. pose proof eta64_le_u64 as He. rewrite u64_val in *.
    assert (x' * 24000 * / 9007199254740992 <= 8640000 * / 9007199254740992) by nra. lra.
Qed.

(* the printed strings are exactly the sign and the fields of the rounded integer *)
Lemma dec2dms_shape (x : pfloat) (cs : Z) :
  Model.Sexagesimal.is_finite x = true -> dms_hundredths x = Some cs ->
  dec2dms x = ((if PrimFloat.ltb x PrimFloat.zero then "-" else "+") ++ fields_string (dms_split cs))%string.
Proof. intros Hf Hcs. unfold dec2dms. rewrite Hf, Hcs. reflexivity. Qed.
Lemma dec2hms_shape (x : pfloat) (cs : Z) :
  Model.Sexagesimal.is_finite x = true -> hms_hundredths x = Some cs ->
  dec2hms x = fields_string (hms_split cs).
Proof. intros Hf Hcs. unfold dec2hms. rewrite Hf, Hcs. reflexivity. Qed.
