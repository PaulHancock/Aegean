(* C17 (strings): the divmod chain of dec2dms / dec2hms splits the single rounded number of hundredths
   losslessly into in-range fields; parsing the fields gives that number back.  Pure Z arithmetic
   (axiom-free) for the field part; the parse part is over R (generated dec2dec arithmetic). *)
From Coq Require Import ZArith Lia Reals Lra.
From Aegean Require Import Gen.Sexagesimal Model.Sexagesimal.
From Aegean Require Model.CatalogRows.

Section Leaves.
Open Scope Z_scope.
Lemma dms_split_eq cs :
  dms_split cs = (cs / 360000, cs mod 360000 / 6000, cs mod 360000 mod 6000 / 100, cs mod 360000 mod 6000 mod 100).
Proof. reflexivity. Qed.
Lemma hms_split_eq cs :
  hms_split cs = (cs / 360000 mod 24, cs mod 360000 / 6000, cs mod 360000 mod 6000 / 100, cs mod 360000 mod 6000 mod 100).
Proof. reflexivity. Qed.
Lemma dms_scale_eq : dms_scale = 360000.
Proof. reflexivity. Qed.
Lemma hms_scale_eq : hms_scale = 24000.
Proof. reflexivity. Qed.
Lemma hms_wrap_eq : hms_wrap = 360.
Proof. reflexivity. Qed.
(* the catalogue rows of C03 split their strings with the same two chains, written over divisors generated on their
   own (dms_div1 .. hms_div3 of Gen/CatRows.v): they are the numbers above *)
Lemma dms_fields_eq_split cs : CatalogRows.dms_fields cs = dms_split cs.
Proof. rewrite dms_split_eq. reflexivity. Qed.
Lemma hms_fields_eq_split cs : CatalogRows.hms_fields cs = hms_split cs.
Proof. rewrite hms_split_eq. reflexivity. Qed.
End Leaves.
Lemma parse_pos_eq f0 f1 f2 : parse_pos f0 f1 f2 = (f0 + f1 / 60 + f2 / 3600)%R.
Proof. reflexivity. Qed.
Lemma parse_neg_eq f0 f1 f2 : parse_neg f0 f1 f2 = (f0 - f1 / 60 - f2 / 3600)%R.
Proof. reflexivity. Qed.
Lemma ra_of_parse_eq v : ra_of_parse v = (v * 15)%R.
Proof. reflexivity. Qed.
Local Opaque dms_split hms_split dms_scale hms_scale hms_wrap parse_pos parse_neg ra_of_parse.

(* fields, for EVERY integer number of hundredths (this is every input: the fields are a function of the one rounded
   integer).  Degrees: non-negative; at most 90 (resp. 360) when the rounded value is, and then 90:00:00.00 is the
   only string with 90 degrees *)
Lemma c17_fields_in_range : forall cs : Z,
  (let '(d, m, s, c) := dms_split cs in
   (0 <= m < 60 /\ 0 <= s < 60 /\ 0 <= c < 100 /\ cs = 360000 * d + 6000 * m + 100 * s + c)%Z) /\
  (0 <= cs -> let '(d, m, s, c) := dms_split cs in
   (0 <= d /\ (cs <= 90 * 360000 -> d <= 90 /\ (d = 90 -> m = 0 /\ s = 0 /\ c = 0)) /\
    (cs <= 360 * 360000 -> d <= 360 /\ (d = 360 -> m = 0 /\ s = 0 /\ c = 0)))%Z)%Z /\
  (let '(h, m, s, c) := hms_split cs in
   (0 <= h < 24 /\ 0 <= m < 60 /\ 0 <= s < 60 /\ 0 <= c < 100 /\
    cs mod 8640000 = 360000 * h + 6000 * m + 100 * s + c)%Z).
Proof. intros cs. rewrite dms_split_eq, hms_split_eq. Z.div_mod_to_equations. lia. Qed.

Section Parse.
Open Scope R_scope.

Lemma parse_dms_value neg cs :
  parse_dms neg (dms_split cs) = (if neg then -1 else 1) * (IZR cs / 360000).
Proof.
  destruct (c17_fields_in_range cs) as (Hf & _). unfold parse_dms, seconds_field.
  destruct (dms_split cs) as [[[d m] s] c]. destruct Hf as (_ & _ & _ & Heq).
  rewrite Heq, parse_pos_eq, parse_neg_eq. rewrite !plus_IZR, !mult_IZR. destruct neg; field.
Qed.

Lemma parse_hms_value cs :
  parse_hms (hms_split cs) = IZR (cs mod 8640000) / 24000.
Proof.
  destruct (c17_fields_in_range cs) as (_ & _ & Hf). unfold parse_hms, seconds_field.
  destruct (hms_split cs) as [[[h m] s] c]. destruct Hf as (_ & _ & _ & _ & Heq).
  rewrite Heq, parse_pos_eq, ra_of_parse_eq. rewrite !plus_IZR, !mult_IZR. field.
Qed.

(* dec2dms then dec2dec: the ONLY error is that of the single rounding cs ~ |x| * 360000, exactly.
   In particular half a unit of the last printed digit (0.005 arcsec = 1/720000 deg) when the
   rounding is to nearest. *)
Lemma dms_roundtrip_exact (x : R) (cs : Z) :
  parse_dms (if Rlt_dec x 0 then true else false) (dms_split cs) - x
  = (if Rlt_dec x 0 then -1 else 1) * ((IZR cs - Rabs x * IZR dms_scale) / 360000).
Proof.
  rewrite parse_dms_value, dms_scale_eq.
  destruct (Rlt_dec x 0) as [Hn|Hn].
  - rewrite Rabs_left by lra. field.
  - rewrite Rabs_right by lra. field.
Qed.

(* dec2hms then ra2dec: equal modulo 360 degrees; 0.005 s of time = 1/48000 deg *)
Lemma hms_roundtrip_exact (x' : R) (cs : Z) :
  parse_hms (hms_split cs) - x' + 360 * IZR (cs / 8640000)%Z = (IZR cs - x' * IZR hms_scale) / 24000.
Proof.
  rewrite parse_hms_value, hms_scale_eq.
  pose proof (Z.div_mod cs 8640000 ltac:(lia)) as H. rewrite H at 3. rewrite plus_IZR, mult_IZR. field.
Qed.
Lemma c17_roundtrip_half_unit :
  (forall (x e : R) (cs : Z),
     Rabs (IZR cs - Rabs x * IZR dms_scale) <= 1 / 2 + e ->
     Rabs (parse_dms (if Rlt_dec x 0 then true else false) (dms_split cs) - x) <= (5 / 1000 + e / 100) / 3600)%R /\
  (forall (x' e : R) (cs : Z),
     Rabs (IZR cs - x' * IZR hms_scale) <= 1 / 2 + e ->
     exists k : Z, Rabs (parse_hms (hms_split cs) + 360 * IZR k - x') <= (5 / 1000 + e / 100) / 3600 * 15
                   /\ (0 <= x' <= 360 -> e < 1 / 2 -> (k = 0 \/ k = 1)%Z))%R.
Proof.
  split.
  - intros x e cs H. rewrite dms_roundtrip_exact.
    set (t := IZR cs - Rabs x * IZR dms_scale) in *.
    assert (Ht : Rabs (t / 360000) <= (1 / 2 + e) / 360000).
    { unfold Rdiv. rewrite Rabs_mult, (Rabs_right (/ 360000)) by lra. nra. }
    destruct (Rlt_dec x 0).
    + replace (-1 * (t / 360000)) with (- (t / 360000)) by ring. rewrite Rabs_Ropp. lra.
    + rewrite Rmult_1_l. lra.
  - intros x' e cs H. exists (cs / 8640000)%Z. split.
    + replace (parse_hms (hms_split cs) + 360 * IZR (cs / 8640000) - x')
        with (parse_hms (hms_split cs) - x' + 360 * IZR (cs / 8640000)%Z) by ring.
      rewrite hms_roundtrip_exact. set (t := IZR cs - x' * IZR hms_scale) in *.
      unfold Rdiv at 1. rewrite Rabs_mult, (Rabs_right (/ 24000)) by lra. lra.
    + intros Hx He. rewrite hms_scale_eq in H.
      assert (Hb : - (1 / 2 + e) <= IZR cs - x' * 24000 <= 1 / 2 + e).
      { split; [pose proof (Rle_abs (- (IZR cs - x' * 24000))) as Q; rewrite Rabs_Ropp in Q; lra
               | pose proof (Rle_abs (IZR cs - x' * 24000)); lra]. }
      assert (Hlo : -1 < IZR cs) by lra.
      assert (Hhi : IZR cs < 8640001) by lra.
      apply lt_IZR in Hlo. apply lt_IZR in Hhi.
      clear -Hlo Hhi. Z.div_mod_to_equations. lia.
Qed.
End Parse.
