(* C09 - circles and polygons cover their shape: proofs about Model/SkyCoords.v.  The generated leaves
   (Gen/SkyCoords.v) enter through one equation per model function, proved by computation with the leaf
   values written out.  healpy and the HEALPix cell geometry enter in Section HEALPix as variables with
   the hypotheses H0-H6, P0-P2. *)
From Coq Require Import Reals ZArith Bool List Lia Lra.
From Aegean Require Import Lib.RBase Lib.Lists Gen.SkyCoords Gen.Regions Model.RegionModel Model.RegionSpec
  Proofs.RegionProofs Model.SkyCoords Model.SkyCoordsSpec.
Import ListNotations.
Open Scope R_scope.

Lemma mask_fill_eq : mask_fill = 0.
Proof. reflexivity. Qed.

Lemma unitvec_norm ra dec : dot (unitvec ra dec) (unitvec ra dec) = 1.
Proof.
  unfold dot, unitvec.
  pose proof (sin2_cos2 ra) as Ha. pose proof (sin2_cos2 dec) as Hd. unfold Rsqr in Ha, Hd.
  replace (cos dec * cos ra * (cos dec * cos ra) + cos dec * sin ra * (cos dec * sin ra) + sin dec * sin dec)
    with (cos dec * cos dec * (sin ra * sin ra + cos ra * cos ra) + sin dec * sin dec) by ring.
  rewrite Ha. lra.
Qed.

Lemma dirvec_unitvec ra dec : dirvec (PI / 2 - dec) ra = unitvec ra dec.
Proof. unfold dirvec, unitvec. rewrite sin_shift, cos_shift. reflexivity. Qed.

Lemma sky2ang_eq ra dec : sky2ang (ra, dec) = (PI / 2 - dec, ra).
Proof. reflexivity. Qed.

Lemma sky2vec_eq hp ra dec : sky2vec hp (ra, dec) = ang2vec hp (PI / 2 - dec) ra.
Proof. reflexivity. Qed.

Lemma vec2sky_eq hp v degrees : vec2sky hp v degrees =
  let tp := vec2ang hp v in
  if degrees then (deg (snd tp), deg (PI / 2 - fst tp)) else (snd tp, PI / 2 - fst tp).
Proof. reflexivity. Qed.

Theorem vec_is_unit_vector : forall hp : healpy, H4_ang2vec hp ->
  forall ra dec, sky2vec hp (ra, dec) = (cos dec * cos ra, cos dec * sin ra, sin dec)
                 /\ dot (sky2vec hp (ra, dec)) (sky2vec hp (ra, dec)) = 1.
Proof.
  intros hp H4 ra dec.
  assert (E : sky2vec hp (ra, dec) = unitvec ra dec).
  { rewrite sky2vec_eq, H4. apply dirvec_unitvec. }
  split; [exact E|]. rewrite E. apply unitvec_norm.
Qed.

(* the poles are left out: there the longitude is not determined *)
Theorem vec2sky_sky2vec : forall hp : healpy, H4b_vec2ang hp ->
  forall ra dec, 0 <= ra < 2 * PI -> - (PI / 2) < dec < PI / 2 ->
  vec2sky hp (sky2vec hp (ra, dec)) false = (ra, dec) /\
  vec2sky hp (sky2vec hp (ra, dec)) true = (deg ra, deg dec).
Proof.
  intros hp Hinv ra dec Hra Hdec. rewrite !vec2sky_eq, sky2vec_eq, Hinv by lra. cbn [fst snd].
  replace (PI / 2 - (PI / 2 - dec)) with dec by ring. split; reflexivity.
Qed.

Lemma row_mask_eq a b : row_mask a b = negb (a && b).
Proof. reflexivity. Qed.
Lemma row_result_eq m h : row_result m h = if m then false else h.
Proof. reflexivity. Qed.

Lemma within_angles_some ra dec :
  within_angles false (Some ra, Some dec) = mkAngles false (PI / 2 - dec) ra.
Proof. reflexivity. Qed.

Lemma within_angles_degin ra dec :
  within_angles true (ra, dec) = within_angles false (omap rad ra, omap rad dec).
Proof. reflexivity. Qed.

Lemma within_angles_nan degin ra dec : ra = None \/ dec = None ->
  a_mask (within_angles degin (ra, dec)) = true.
Proof.
  intros H. unfold within_angles. cbn [fst snd a_mask]. rewrite row_mask_eq.
  destruct degin, ra as [a|], dec as [b|]; cbn [omap omap2 finite andb negb]; try reflexivity;
    destruct H as [H|H]; discriminate H.
Qed.

Lemma within_pix_eq hp D a : within_pix hp D a = ang2pix hp D true (a_theta a) (a_phi a).
Proof. reflexivity. Qed.

Theorem nan_false : forall hp s ra dec degin, ra = None \/ dec = None ->
  sky_within1 hp s ra dec degin = false.
Proof.
  intros hp s ra dec degin H. unfold sky_within1. rewrite within_angles_nan by exact H.
  apply row_result_eq.
Qed.

Theorem degin_same : forall hp s ra dec,
  sky_within1 hp s ra dec true = sky_within1 hp s (omap rad ra) (omap rad dec) false.
Proof. intros. unfold sky_within1. rewrite within_angles_degin. reflexivity. Qed.

Corollary degin_deg : forall hp s ra dec,
  sky_within1 hp s (Some (deg ra)) (Some (deg dec)) true = sky_within1 hp s (Some ra) (Some dec) false.
Proof. intros. rewrite degin_same. cbn [omap]. rewrite !rad_deg. reflexivity. Qed.

(* scalar and vector inputs: the vector answer is the scalar answer row by row *)
Theorem within_rows : forall hp s c degin,
  sky_within hp s c degin = map (fun r => sky_within1 hp s (fst r) (snd r) degin) (radec2sky c).
Proof.
  intros. unfold sky_within, RegionModel.sky_within. cbv zeta. cbn [snd].
  set (ang := map (within_angles degin) (radec2sky c)).
  rewrite (map_map (within_pix hp (depth s))).
  rewrite (map_combine_map (fun mh => row_result (fst mh) (snd mh)) a_mask).
  unfold ang. rewrite map_map. apply map_ext. intros [ra dec]. cbn [fst snd]. reflexivity.
Qed.

Corollary within_scalar : forall hp s ra dec degin,
  sky_within hp s (Scalar ra dec) degin = [sky_within1 hp s ra dec degin].
Proof. intros. rewrite within_rows. reflexivity. Qed.

(* the real-free logic used by the exact correspondence check is the logic of sky_within1 *)
Lemma within_logic_row : forall hp s ra dec degin,
  within_logic [(finite ra, finite dec)]
     [within_pix hp (depth s) (within_angles degin (ra, dec))]
     (level (cells (demote_all s)) (depth (demote_all s)))
  = [(a_mask (within_angles degin (ra, dec)), sky_within1 hp s ra dec degin)].
Proof.
  intros. unfold within_logic, sky_within1. cbn [combine map fst snd].
  destruct degin, ra, dec; reflexivity.
Qed.

Definition add_many (s : region) (dd : Z) (pss : list (list Z)) : region :=
  renorm (fold_left (fun s ps => add_pixels s dd ps) pss s).

Lemma add_many_depth s dd pss : depth (add_many s dd pss) = depth s.
Proof.
  unfold add_many. rewrite renorm_depth. apply (fold_left_inv (fun a => depth a = depth s)); [|reflexivity].
  intros a ps _ <-. apply add_pixels_depth.
Qed.

Lemma add_many_valid s dd pss : valid s -> (1 <= dd <= depth s)%Z -> Forall (valid_pix dd) pss ->
  Inv (add_many s dd pss) /\ no_overlap (add_many s dd pss).
Proof.
  intros Hv Hd Hp. unfold add_many.
  enough (Hv' : let s' := fold_left (fun s ps => add_pixels s dd ps) pss s in valid s' /\ depth s' = depth s)
    by (split; [apply renorm_Inv | apply renorm_no_overlap]; apply Hv').
  apply (fold_left_inv (fun a => valid a /\ depth a = depth s)); [|split; [exact Hv | reflexivity]].
  intros a ps Hps [Ha Ea]. rewrite add_pixels_depth. split; [|exact Ea].
  apply add_pixels_valid; [exact Ha | rewrite Ea; exact Hd | exact (proj1 (Forall_forall _ _) Hp ps Hps)].
Qed.

Lemma add_many_absP s dd pss q : (dd <= depth s)%Z ->
  (absP (add_many s dd pss) q <->
   absP s q \/ exists ps, In ps pss /\ In (q / 4 ^ (depth s - dd))%Z ps).
Proof.
  unfold add_many. rewrite renorm_absP. revert s.
  induction pss as [|ps pss IH]; intros s Hd; cbn [fold_left].
  - split; [tauto | intros [H|[ps [[] _]]]; exact H].
  - rewrite IH, add_pixels_absP, add_pixels_depth, cover_set_at_level by (rewrite ?add_pixels_depth; exact Hd).
    split.
    + intros [[H|H]|[ps' [Hin H]]]; [tauto | right; exists ps | right; exists ps']; cbn [In]; tauto.
    + intros [H|[ps' [[<-|Hin] H]]]; [tauto | tauto | right; exists ps'; tauto].
Qed.

Lemma insert_depth_range clamp dflt D d :
  (forall D d, clamp D d = (D <? d)%Z) -> (forall D, dflt D = D) -> (1 <= D)%Z -> depth_ok d ->
  (1 <= insert_depth clamp dflt D d <= D)%Z.
Proof.
  intros Hc Hd HD Hd0. unfold insert_depth. destruct d as [d0|]; [|rewrite Hd; lia].
  rewrite Hc, Hd. unfold depth_ok in Hd0. destruct (Z.ltb_spec D d0); lia.
Qed.

Lemma circle_depth_range D d : (1 <= D)%Z -> depth_ok d -> (1 <= circle_depth D d <= D)%Z.
Proof. apply insert_depth_range; reflexivity. Qed.
Lemma polygon_depth_range D d : (1 <= D)%Z -> depth_ok d -> (1 <= polygon_depth D d <= D)%Z.
Proof. apply insert_depth_range; reflexivity. Qed.

Lemma add_circles_eq hp s cs d :
  add_circles hp s cs d =
  add_many s (circle_depth (depth s) d) (map (disc_pixels hp (circle_depth (depth s) d)) cs).
Proof. unfold add_circles, add_many, circle_depth. rewrite fold_left_map. reflexivity. Qed.

Lemma add_poly_eq hp s vs d :
  add_poly hp s vs d = add_many s (polygon_depth (depth s) d) [poly_pixels hp (polygon_depth (depth s) d) vs].
Proof. reflexivity. Qed.

Lemma disc_pixels_eq hp dd ra dec r :
  disc_pixels hp dd (ra, dec, r) = query_disc hp dd (ang2vec hp (PI / 2 - dec) ra) r true true.
Proof. reflexivity. Qed.

Lemma poly_pixels_eq hp dd vs :
  poly_pixels hp dd vs = query_polygon hp dd (map (sky2vec hp) vs) true true.
Proof. reflexivity. Qed.

Lemma add_circles_absP hp s cs d q : (1 <= depth s)%Z -> depth_ok d ->
  (absP (add_circles hp s cs d) q <->
   absP s q \/ exists c, In c cs /\
     In (q / 4 ^ (depth s - circle_depth (depth s) d))%Z (disc_pixels hp (circle_depth (depth s) d) c)).
Proof.
  intros HD Hd. pose proof (circle_depth_range (depth s) d HD Hd).
  rewrite add_circles_eq, add_many_absP by lia. apply or_iff_compat_l. split.
  - intros [ps [Hps Hq]]. apply in_map_iff in Hps. destruct Hps as [c [<- Hc]]. exists c. split; assumption.
  - intros [c [Hc Hq]]. eexists. split; [apply in_map; exact Hc | exact Hq].
Qed.

Lemma add_circle_init_absP hp D c d q : (1 <= D)%Z -> depth_ok d ->
  (absP (add_circles hp (init D) [c] d) q <->
   In (q / 4 ^ (D - circle_depth D d))%Z (disc_pixels hp (circle_depth D d) c)).
Proof.
  intros HD Hd. rewrite add_circles_absP, absP_init by assumption. cbn [init depth In]. split.
  - intros [[]|[c' [[<-|[]] H]]]. exact H.
  - intros H. right. exists c. split; [left; reflexivity | exact H].
Qed.

Section HEALPix.
  (* the parameters of Section Hyps of Model/SkyCoordsSpec.v, where they are explained, and its hypotheses by name *)
  Variable hp : healpy.
  Variable incell : Z -> Z -> vec -> Prop.
  Variable pixsize : Z -> R.
  Variable K : R.
  Variable accepted : list vec -> Prop.

  Hypothesis H_ang2vec : H4_ang2vec hp.
  Hypothesis H_ang2pix : H3_ang2pix hp incell.
  Hypothesis H_nested : H5_nested hp.
  Hypothesis H_disc_valid : H0_disc_valid hp.
  Hypothesis H_disc_complete : H1_disc_complete hp incell.
  Hypothesis H_disc_tight : H2_disc_tight hp incell pixsize K.
  Hypothesis H_poly_valid : P0_poly_valid hp.
  Hypothesis H_poly_complete : P1_poly_complete hp incell accepted.
  Hypothesis H_poly_tight : P2_poly_tight hp incell pixsize K accepted.

  Lemma within1_finite s ra dec : Inv s ->
    (sky_within1 hp s (Some ra) (Some dec) false = true <->
     absP s (ang2pix hp (depth s) true (PI / 2 - dec) ra)).
  Proof.
    intros HI. unfold sky_within1. rewrite within_angles_some, row_result_eq, within_pix_eq.
    cbn [a_mask a_theta a_phi]. rewrite memZ_spec. exact (get_demoted_spec s _ HI).
  Qed.

  Lemma own_cell d ra dec : - (PI / 2) <= dec <= PI / 2 ->
    incell d (ang2pix hp d true (PI / 2 - dec) ra) (unitvec ra dec).
  Proof. intros Hdec. rewrite <- dirvec_unitvec. apply H_ang2pix. lra. Qed.

  Lemma within_add_many s dd pss ra dec : Inv s -> (1 <= dd <= depth s)%Z -> Forall (valid_pix dd) pss ->
    - (PI / 2) <= dec <= PI / 2 ->
    (sky_within1 hp (add_many s dd pss) (Some ra) (Some dec) false = true <->
     sky_within1 hp s (Some ra) (Some dec) false = true \/
     exists ps, In ps pss /\ In (ang2pix hp dd true (PI / 2 - dec) ra) ps).
  Proof.
    intros HI Hd Hv Hdec.
    rewrite (within1_finite s) by exact HI.
    rewrite within1_finite by (apply add_many_valid; [apply HI | exact Hd | exact Hv]).
    rewrite add_many_depth, add_many_absP, H_nested by (exact Hd || lia || lra). reflexivity.
  Qed.

  Lemma within_add_many_init D dd pss ra dec : (1 <= dd <= D)%Z -> Forall (valid_pix dd) pss ->
    - (PI / 2) <= dec <= PI / 2 ->
    (sky_within1 hp (add_many (init D) dd pss) (Some ra) (Some dec) false = true <->
     exists ps, In ps pss /\ In (ang2pix hp dd true (PI / 2 - dec) ra) ps).
  Proof.
    intros Hd Hv Hdec. assert (HI : Inv (init D)) by (apply init_Inv; lia).
    rewrite within_add_many, within1_finite, absP_init by assumption. tauto.
  Qed.

  Lemma discs_valid dd cs : (1 <= dd)%Z -> Forall (valid_pix dd) (map (disc_pixels hp dd) cs).
  Proof.
    intros Hdd. apply Forall_map, Forall_forall. intros [[ra dec] r] _.
    rewrite disc_pixels_eq. apply H_disc_valid. exact Hdd.
  Qed.

  Theorem circle_covers : forall s cs d ra dec r ra' dec',
    Inv s -> depth_ok d -> In (ra, dec, r) cs -> 0 <= r <= PI -> - (PI / 2) <= dec' <= PI / 2 ->
    angdist (unitvec ra dec) (unitvec ra' dec') <= r ->
    sky_within1 hp (add_circles hp s cs d) (Some ra') (Some dec') false = true /\
    sky_within1 hp (add_circles hp s cs d) (Some (deg ra')) (Some (deg dec')) true = true.
  Proof.
    intros s cs d ra dec r ra' dec' HI Hd Hc Hr Hdec Hdist.
    pose proof (circle_depth_range (depth s) d (proj1 (proj1 HI)) Hd) as Hdd.
    rewrite degin_deg.
    enough (Hw : sky_within1 hp (add_circles hp s cs d) (Some ra') (Some dec') false = true) by (split; exact Hw).
    rewrite add_circles_eq.
    apply within_add_many; [exact HI | exact Hdd | apply discs_valid; lia | exact Hdec |].
    right. exists (disc_pixels hp (circle_depth (depth s) d) (ra, dec, r)). split; [apply in_map; exact Hc|].
    rewrite disc_pixels_eq, H_ang2vec, dirvec_unitvec.
    apply (H_disc_complete _ _ _ _ (unitvec ra' dec')); [exact Hr | apply own_cell; exact Hdec | exact Hdist].
  Qed.

  Theorem circle_tight : forall D cs d ra' dec',
    (1 <= D)%Z -> depth_ok d -> (forall ra dec r, In (ra, dec, r) cs -> 0 <= r <= PI) ->
    - (PI / 2) <= dec' <= PI / 2 ->
    sky_within1 hp (add_circles hp (init D) cs d) (Some ra') (Some dec') false = true ->
    exists ra dec r, In (ra, dec, r) cs /\
      angdist (unitvec ra dec) (unitvec ra' dec') <= r + K * pixsize (circle_depth D d).
  Proof.
    intros D cs d ra' dec' HD Hd Hr Hdec Hw.
    pose proof (circle_depth_range D d HD Hd) as Hdd.
    rewrite add_circles_eq in Hw. cbn [init depth] in Hw.
    apply within_add_many_init in Hw; [| exact Hdd | apply discs_valid; lia | exact Hdec].
    destruct Hw as [ps [Hps Hin]]. apply in_map_iff in Hps. destruct Hps as [[[ra dec] r] [<- Hc]].
    exists ra, dec, r. split; [exact Hc|].
    rewrite disc_pixels_eq, H_ang2vec, dirvec_unitvec in Hin.
    apply (H_disc_tight _ _ _ _ (unitvec ra' dec') (Hr _ _ _ Hc) Hin). apply own_cell. exact Hdec.
  Qed.

  Lemma polys_valid dd vs : (1 <= dd)%Z -> Forall (valid_pix dd) [poly_pixels hp dd vs].
  Proof. intros Hdd. apply Forall_cons; [rewrite poly_pixels_eq; apply H_poly_valid; exact Hdd | apply Forall_nil]. Qed.

  Lemma map_sky2vec vs : map (sky2vec hp) vs = map skyvec vs.
  Proof.
    apply map_ext. intros [ra dec]. rewrite sky2vec_eq, H_ang2vec. apply dirvec_unitvec.
  Qed.

  Theorem poly_covers : forall s vs d ra' dec',
    Inv s -> depth_ok d -> accepted (map skyvec vs) -> - (PI / 2) <= dec' <= PI / 2 ->
    inside_poly (map skyvec vs) (unitvec ra' dec') ->
    sky_within1 hp (add_poly hp s vs d) (Some ra') (Some dec') false = true /\
    sky_within1 hp (add_poly hp s vs d) (Some (deg ra')) (Some (deg dec')) true = true.
  Proof.
    intros s vs d ra' dec' HI Hd Hacc Hdec Hin.
    pose proof (polygon_depth_range (depth s) d (proj1 (proj1 HI)) Hd) as Hdd.
    rewrite degin_deg.
    enough (Hw : sky_within1 hp (add_poly hp s vs d) (Some ra') (Some dec') false = true) by (split; exact Hw).
    rewrite add_poly_eq.
    apply within_add_many; [exact HI | exact Hdd | apply polys_valid; lia | exact Hdec |].
    right. eexists. split; [left; reflexivity|]. rewrite poly_pixels_eq, map_sky2vec.
    apply (H_poly_complete _ _ _ (unitvec ra' dec') Hacc); [apply own_cell; exact Hdec | exact Hin].
  Qed.

  Theorem poly_tight : forall D vs d cra cdec rho ra' dec',
    (1 <= D)%Z -> depth_ok d -> accepted (map skyvec vs) -> 0 <= rho < PI / 2 ->
    (forall x, In x vs -> angdist (unitvec cra cdec) (skyvec x) <= rho) ->
    - (PI / 2) <= dec' <= PI / 2 ->
    sky_within1 hp (add_poly hp (init D) vs d) (Some ra') (Some dec') false = true ->
    angdist (unitvec cra cdec) (unitvec ra' dec') <= rho + K * pixsize (polygon_depth D d).
  Proof.
    intros D vs d cra cdec rho ra' dec' HD Hd Hacc Hrho Hvs Hdec Hw.
    pose proof (polygon_depth_range D d HD Hd) as Hdd.
    rewrite add_poly_eq in Hw. cbn [init depth] in Hw.
    apply within_add_many_init in Hw; [| exact Hdd | apply polys_valid; lia | exact Hdec].
    destruct Hw as [ps [[<-|[]] Hin]]. rewrite poly_pixels_eq, map_sky2vec in Hin.
    eapply (H_poly_tight _ _ _ _ _ (unitvec ra' dec') Hacc Hrho); [| exact Hin | apply own_cell; exact Hdec].
    intros a Ha. apply in_map_iff in Ha. destruct Ha as [x [<- Hx]]. apply Hvs. exact Hx.
  Qed.

  (* The sphere's area measure is not constructed: it enters as the set function mu of Section Hyps with
     the hypotheses Mu_mono, Mu_cells, Mu_cap stated there. *)
  Variable mu : (sky -> Prop) -> R.
  Hypothesis mu_mono : Mu_mono mu.
  Hypothesis mu_cells : Mu_cells incell mu.
  Hypothesis mu_cap : Mu_cap mu.
  Hypothesis H_cells_nested : H6_cells_nested incell.

  (* area_units * pixarea D is what get_area(degrees=False) sums.  It is the measure of the union of the
     listed pixels' cells, which contains the cap of radius r (circle_covers) and lies in the cap of radius
     r + K pixel sizes (H2 and H6). *)
  Theorem area_between_caps : forall D d ra dec r,
    (1 <= D)%Z -> depth_ok d -> 0 <= r -> r + K * pixsize (circle_depth D d) <= PI -> 0 <= K * pixsize (circle_depth D d) ->
    let s := add_circles hp (init D) [(ra, dec, r)] d in
    2 * PI * (1 - cos r) <= IZR (area_units s) * pixarea D <= 2 * PI * (1 - cos (r + K * pixsize (circle_depth D d))).
  Proof.
    intros D d ra dec r HD Hd Hr0 Hr1 HK s.
    pose proof (circle_depth_range D d HD Hd) as Hdd.
    assert (Hr : 0 <= r <= PI) by lra.
    assert (HI0 : Inv (init D)) by (apply init_Inv; exact HD).
    assert (HDs : depth s = D) by (unfold s; rewrite add_circles_eq; apply add_many_depth).
    assert (Hs : Inv s /\ no_overlap s).
    { unfold s. rewrite add_circles_eq. cbn [init depth]. apply add_many_valid; [apply HI0 | exact Hdd | apply discs_valid; lia]. }
    destruct Hs as [HI Hno].
    destruct (pixels_enumerates s (proj1 HI) Hno) as [Hnd Hl]. rewrite HDs in Hnd, Hl.
    rewrite area_units_pixels, HDs, <- INR_IZR_INZ, <- (mu_cells D _ Hnd).
    split.
    - rewrite <- (mu_cap (ra, dec) r Hr). apply mu_mono. intros [ra' dec'] [Hx Hdist]. split; [exact Hx|].
      unfold skyvec in *. cbn [fst snd] in *.
      assert (Hdec : - (PI / 2) <= dec' <= PI / 2) by apply Hx.
      destruct (circle_covers (init D) [(ra, dec, r)] d ra dec r ra' dec' HI0 Hd (or_introl eq_refl) Hr Hdec Hdist)
        as [Hw _].
      apply (within1_finite s) in Hw; [| exact HI]. rewrite HDs in Hw.
      exists (ang2pix hp D true (PI / 2 - dec') ra'). split; [apply Hl; exact Hw | apply own_cell; exact Hdec].
    - rewrite <- (mu_cap (ra, dec) (r + K * pixsize (circle_depth D d))) by lra.
      apply mu_mono. intros x [Hx [q [Hq Hcell]]]. split; [exact Hx|].
      apply Hl, add_circle_init_absP in Hq; [| exact HD | exact Hd].
      rewrite disc_pixels_eq, H_ang2vec, dirvec_unitvec in Hq.
      apply (H_disc_tight _ _ _ _ (skyvec x) Hr Hq). apply H_cells_nested; [exact Hdd | exact Hcell].
  Qed.
End HEALPix.
