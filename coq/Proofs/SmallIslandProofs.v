(* C01 - proofs about Model/SmallIsland.v (leaves of Gen/SmallIsland.v are unfolded here only). *)
From Coq Require Import ZArith NArith Bool List Lia.
From Aegean Require Import Gen.SmallIsland Model.SmallIsland.
Import ListNotations.
Open Scope Z_scope.

(* the flag word as a decision on the island alone: FITERRSMALL|FIXED2PSF below 4 pixels, FIXED2PSF for every other island of
   at most 6 pixels or at most 2 pixels across (3 free parameters per component instead of 6), NOTFIT added when the pixels do
   not cover the free parameters *)
Lemma fit_flags_eq : forall npix mindim ncomp, fit_flags npix mindim ncomp =
  let small := (npix <=? 6) || (mindim <=? 2) in
  let f1 := if npix <? 4 then 5%N else if small then 4%N else 0%N in
  let nfree := ncomp * (if small then 3 else 6) in
  if (npix <? nfree) || (nfree =? 0) then N.lor f1 16 else f1.
Proof.
  intros npix mindim ncomp. unfold fit_flags, si_small_flag, si_tiny_dim, si_tiny_masks, si_cannot_fit.
  rewrite (Z.leb_antisym npix 4). destruct (Z.ltb_spec npix 4), (Z.leb_spec npix 6), (mindim <=? 2); try reflexivity; lia.
Qed.

Lemma fit_flags_tiny : forall npix mindim ncomp, npix < 4 ->
  fit_flags npix mindim ncomp = if si_cannot_fit npix (ncomp * 3) then 21%N else 5%N.
Proof.
  intros npix mindim ncomp H. rewrite fit_flags_eq. cbv zeta.
  destruct (Z.ltb_spec npix 4); [|lia]. destruct (Z.leb_spec npix 6); [|lia]. reflexivity.
Qed.
Lemma fit_flags_small : forall npix mindim ncomp, 4 <= npix -> npix <= 6 \/ mindim <= 2 ->
  fit_flags npix mindim ncomp = if si_cannot_fit npix (ncomp * 3) then 20%N else 4%N.
Proof.
  intros npix mindim ncomp H4 Hs. rewrite fit_flags_eq. cbv zeta.
  destruct (Z.ltb_spec npix 4); [lia|].
  replace ((npix <=? 6) || (mindim <=? 2)) with true; [reflexivity|].
  symmetry. apply orb_true_iff. destruct Hs; [left | right]; apply Z.leb_le; assumption.
Qed.
Lemma fit_flags_large : forall npix mindim ncomp, 6 < npix -> 2 < mindim ->
  fit_flags npix mindim ncomp = if si_cannot_fit npix (ncomp * 6) then 16%N else 0%N.
Proof.
  intros npix mindim ncomp H6 H2. rewrite fit_flags_eq. cbv zeta.
  destruct (Z.ltb_spec npix 4); [lia|]. destruct (Z.leb_spec npix 6); [lia|]. destruct (Z.leb_spec mindim 2); [lia|].
  reflexivity.
Qed.
Lemma island_class : forall npix mindim, npix < 4 \/ (4 <= npix /\ (npix <= 6 \/ mindim <= 2)) \/ (6 < npix /\ 2 < mindim).
Proof. intros. lia. Qed.
Lemma can_fit_iff : forall npix nfree, 0 < nfree -> (si_cannot_fit npix nfree = false <-> nfree <= npix).
Proof.
  intros npix nfree H. unfold si_cannot_fit. rewrite orb_false_iff, Z.ltb_ge, Z.eqb_neq. lia.
Qed.

(* no flag at all from Aegean's own logic: more than 6 finite pixels, more than 2 pixels across, 6 pixels per component *)
Lemma unflagged_iff : forall npix mindim ncomp, 0 < ncomp ->
  (fit_flags npix mindim ncomp = 0%N <-> (6 < npix /\ 2 < mindim /\ 6 * ncomp <= npix)).
Proof.
  intros npix mindim ncomp Hn. destruct (island_class npix mindim) as [T | [[H4 S] | [H6 H2]]].
  - rewrite fit_flags_tiny by exact T. split; [|lia]. destruct (si_cannot_fit _ _); discriminate.
  - rewrite fit_flags_small by assumption. split; [|lia]. destruct (si_cannot_fit _ _); discriminate.
  - rewrite fit_flags_large by assumption. rewrite <- (Z.mul_comm ncomp 6), <- (can_fit_iff npix (ncomp * 6)) by lia.
    destruct (si_cannot_fit _ _).
    + split; [discriminate | intros [_ [_ H]]; discriminate H].
    + split; [intros _; repeat split; assumption | reflexivity].
Qed.

(* FIXED2PSF (shape fixed to the beam) exactly for islands of at most 6 finite pixels or at most 2 pixels across *)
Lemma fixed2psf_iff : forall npix mindim ncomp,
  si_has (fit_flags npix mindim ncomp) si_FIXED2PSF = false <-> (6 < npix /\ 2 < mindim).
Proof.
  intros npix mindim ncomp. destruct (island_class npix mindim) as [T | [[H4 S] | [H6 H2]]].
  - rewrite fit_flags_tiny by exact T. split; [|lia]. destruct (si_cannot_fit _ _); discriminate.
  - rewrite fit_flags_small by assumption. split; [|lia]. destruct (si_cannot_fit _ _); discriminate.
  - rewrite fit_flags_large by assumption. split; [intros _; split; assumption|]. destruct (si_cannot_fit _ _); reflexivity.
Qed.

(* the shape of every component is fitted exactly when no flag is set *)
Lemma shape_fitted_iff : forall npix mindim ncomp, 0 < ncomp ->
  (shape_fitted npix mindim ncomp = true <-> (6 < npix /\ 2 < mindim /\ 6 * ncomp <= npix)).
Proof.
  intros npix mindim ncomp Hn. rewrite <- unflagged_iff by exact Hn. unfold shape_fitted.
  destruct (island_class npix mindim) as [T | [[H4 S] | [H6 H2]]].
  - rewrite fit_flags_tiny by exact T. destruct (si_cannot_fit _ _); split; discriminate.
  - rewrite fit_flags_small by assumption. destruct (si_cannot_fit _ _); split; discriminate.
  - rewrite fit_flags_large by assumption. destruct (si_cannot_fit _ _); split; try discriminate; reflexivity.
Qed.
