(* Lemmas about the real-valued sigma clipping of Lib/Stats.v: equivariance under shift and scale, range of the
   clipped mean and of the clipped standard deviation.  Everything is proved for arbitrary levels / strictness /
   number of rounds; the scale lemma for negative factors needs symmetric levels and equal strictness. *)
From Coq Require Import Reals Lra Lia List ZArith Bool Psatz.
From Aegean Require Import Lib.Stats Lib.Lists.
Import ListNotations.
Open Scope R_scope.

Notation sumr := (sum R 0 Rplus).

Lemma sumr_cons a l : sumr (a :: l) = a + sumr l.
Proof. reflexivity. Qed.
Lemma sumr_nil : sumr [] = 0.
Proof. reflexivity. Qed.

Lemma INR_len_pos {A} (l : list A) : l <> [] -> 0 < INR (length l).
Proof. intros H. destruct l; [congruence|]. cbn [length]. apply lt_0_INR. lia. Qed.

Lemma sum_map_shift l k : sumr (map (fun x => x + k) l) = sumr l + INR (length l) * k.
Proof.
  induction l as [|a l IH]; cbn [map length].
  - rewrite sumr_nil. cbn. ring.
  - rewrite !sumr_cons, IH, S_INR. ring.
Qed.

Lemma sum_map_scale (f : R -> R) l k : sumr (map (fun x => k * f x) l) = k * sumr (map f l).
Proof.
  induction l as [|a l IH]; cbn [map].
  - rewrite sumr_nil. ring.
  - rewrite !sumr_cons, IH. ring.
Qed.

Lemma mean_shift l k : l <> [] -> mean_r (map (fun x => x + k) l) = mean_r l + k.
Proof.
  intros H. unfold mean_r, mean. rewrite map_length, sum_map_shift.
  pose proof (INR_len_pos l H). field. lra.
Qed.

Lemma mean_scale l k : l <> [] -> mean_r (map (fun x => k * x) l) = k * mean_r l.
Proof.
  intros H. unfold mean_r, mean. rewrite map_length.
  rewrite (sum_map_scale (fun x => x) l k), map_id.
  pose proof (INR_len_pos l H). field. lra.
Qed.

Lemma var_shift l k : l <> [] -> var_r (map (fun x => x + k) l) = var_r l.
Proof.
  intros H. unfold var_r, var. fold mean_r. rewrite (mean_shift l k H), map_map, map_length.
  f_equal. f_equal. apply map_ext. intros x. ring.
Qed.

Lemma var_scale l k : l <> [] -> var_r (map (fun x => k * x) l) = (k * k) * var_r l.
Proof.
  intros H. unfold var_r, var. fold mean_r. rewrite (mean_scale l k H), map_map, map_length.
  replace (map (fun x => (k * x - k * mean_r l) * (k * x - k * mean_r l)) l)
    with (map (fun x => (k * k) * ((x - mean_r l) * (x - mean_r l))) l) by (apply map_ext; intros; ring).
  rewrite (sum_map_scale (fun x => (x - mean_r l) * (x - mean_r l)) l (k * k)).
  pose proof (INR_len_pos l H). field. lra.
Qed.

Lemma sum_sq_nonneg (f : R -> R) l : 0 <= sumr (map (fun x => f x * f x) l).
Proof.
  induction l as [|a l IH]; cbn [map].
  - rewrite sumr_nil. lra.
  - rewrite sumr_cons. pose proof (Rle_0_sqr (f a)) as Hs. unfold Rsqr in Hs. lra.
Qed.

Lemma var_nonneg l : l <> [] -> 0 <= var_r l.
Proof.
  intros H. unfold var_r, var, Rdiv. apply Rmult_le_pos; [apply (sum_sq_nonneg (fun x => x - _))|].
  left. apply Rinv_0_lt_compat, INR_len_pos, H.
Qed.

Lemma std_shift l k : l <> [] -> std_r (map (fun x => x + k) l) = std_r l.
Proof. intros H. unfold std_r. rewrite var_shift by exact H. reflexivity. Qed.

Lemma std_scale l k : l <> [] -> std_r (map (fun x => k * x) l) = Rabs k * std_r l.
Proof.
  intros H. unfold std_r. rewrite var_scale by exact H.
  rewrite sqrt_mult_alt by (pose proof (Rle_0_sqr k) as Hs; unfold Rsqr in Hs; exact Hs).
  f_equal. fold (Rsqr k). apply sqrt_Rsqr_abs.
Qed.

Lemma sum_bounds l lo hi : Forall (fun x => lo <= x <= hi) l ->
  INR (length l) * lo <= sumr l <= INR (length l) * hi.
Proof.
  induction 1 as [|a l Ha _ IH].
  - rewrite sumr_nil. cbn [length INR]. lra.
  - cbn [length]. rewrite S_INR, sumr_cons. lra.
Qed.

Lemma div_bounds S n lo hi : 0 < n -> n * lo <= S <= n * hi -> lo <= S / n <= hi.
Proof.
  intros Hn H. split; apply Rmult_le_reg_r with n; try exact Hn; unfold Rdiv; rewrite Rmult_assoc, Rinv_l; lra.
Qed.

Lemma mean_range l lo hi : l <> [] -> Forall (fun x => lo <= x <= hi) l -> lo <= mean_r l <= hi.
Proof. intros H HF. apply div_bounds; [apply INR_len_pos; exact H | apply sum_bounds; exact HF]. Qed.

Lemma sum_sq_expand l m :
  sumr (map (fun x => (x - m) * (x - m)) l) = sumr (map (fun x => x * x) l) - 2 * m * sumr l + INR (length l) * (m * m).
Proof.
  induction l as [|a l IH]; cbn [map length].
  - rewrite !sumr_nil. cbn. ring.
  - rewrite !sumr_cons, IH, S_INR. ring.
Qed.

Lemma sum_sq_bound l M : Forall (fun x => - M <= x <= M) l -> sumr (map (fun x => x * x) l) <= INR (length l) * (M * M).
Proof.
  induction 1 as [|a l Ha _ IH]; cbn [map length].
  - rewrite sumr_nil. cbn. lra.
  - rewrite sumr_cons, S_INR. assert (a * a <= M * M) by nra. lra.
Qed.

Lemma var_le_sq l M : l <> [] -> Forall (fun x => - M <= x <= M) l -> var_r l <= M * M.
Proof.
  intros H HF. pose proof (INR_len_pos l H) as Hn. unfold var_r, var. fold mean_r.
  rewrite sum_sq_expand. replace (sumr l) with (INR (length l) * mean_r l) by (unfold mean_r, mean; field; lra).
  (* sum (x - m)^2 = sum x^2 - n m^2 *)
  pose proof (sum_sq_bound l M HF). pose proof (Rmult_le_pos _ _ (Rlt_le _ _ Hn) (Rle_0_sqr (mean_r l))) as Hm.
  unfold Rsqr in Hm. apply Rmult_le_reg_r with (INR (length l)); [exact Hn|].
  unfold Rdiv. rewrite Rmult_assoc, Rinv_l; lra.
Qed.

Lemma std_range l M : l <> [] -> Forall (fun x => - M <= x <= M) l -> 0 <= std_r l <= M.
Proof.
  intros H HF. split; [apply sqrt_pos|].
  assert (HM : 0 <= M) by (destruct l as [|a l]; [congruence|]; inversion HF; subst; lra).
  unfold std_r. rewrite <- (sqrt_square M HM). apply sqrt_le_1_alt. apply var_le_sq; assumption.
Qed.

Section Loop.
  Variable keep : R -> R -> R -> bool.
  Notation loop := (clip_loop R 0 Rplus Rdiv INR std_r keep).

  Lemma clip_loop_equiv (phi fm fs : R -> R) :
    (forall m s x, keep (fm m) (fs s) (phi x) = keep m s x) ->
    (forall l, l <> [] -> mean_r (map phi l) = fm (mean_r l)) ->
    (forall l, l <> [] -> std_r (map phi l) = fs (std_r l)) ->
    forall reps l m s,
      loop reps (map phi l) (fm m) (fs s) = (fm (fst (loop reps l m s)), fs (snd (loop reps l m s))).
  Proof.
    intros Hk Hm Hs. induction reps as [|n IH]; intros l m s; cbn [clip_loop]; [reflexivity|].
    rewrite filter_map_comm, (filter_ext _ (keep m s)) by (intros; apply Hk).
    destruct (filter (keep m s) l) as [|a l'] eqn:E; cbn [map]; [reflexivity|].
    change (phi a :: map phi l') with (map phi (a :: l')). rewrite !map_length.
    destruct (Nat.eqb (length (a :: l')) (length l)); [reflexivity|].
    fold mean_r. rewrite Hm, Hs by discriminate. apply IH.
  Qed.

  (* invariant: the result is the initial pair or the statistics of a non-empty sub-list *)
  Lemma clip_loop_inv (Px Pm Ps : R -> Prop) :
    (forall l, l <> [] -> Forall Px l -> Pm (mean_r l) /\ Ps (std_r l)) ->
    forall reps l m s, Forall Px l -> Pm m -> Ps s ->
      Pm (fst (loop reps l m s)) /\ Ps (snd (loop reps l m s)).
  Proof.
    intros H. induction reps as [|n IH]; intros l m s HF Hm Hs; cbn [clip_loop]; [split; assumption|].
    destruct (filter (keep m s) l) as [|a l'] eqn:E; [split; assumption|].
    destruct (Nat.eqb (length (a :: l')) (length l)); [split; assumption|].
    assert (HF' : Forall Px (a :: l')).
    { rewrite <- E. apply Forall_forall. intros x Hx. apply filter_In in Hx as [Hx _].
      rewrite Forall_forall in HF. apply HF. exact Hx. }
    fold mean_r. destruct (H (a :: l')) as [H1 H2]; [discriminate | exact HF' |].
    apply IH; assumption.
  Qed.
End Loop.

Lemma rcmp_spec strict a b : rcmp strict a b = true <-> (if strict then a < b else a <= b).
Proof.
  unfold rcmp, Rltb, Rleb. destruct strict; [destruct (Rlt_dec a b) | destruct (Rle_dec a b)];
    split; (discriminate || contradiction || auto).
Qed.

Lemma keep_r_spec lo hi sl sh m s x :
  keep_r lo hi sl sh m s x = true <->
  (if sl then m - s * IZR lo < x else m - s * IZR lo <= x) /\ (if sh then x < m + s * IZR hi else x <= m + s * IZR hi).
Proof. unfold keep_r. rewrite andb_true_iff, !rcmp_spec. reflexivity. Qed.

Lemma keep_shift lo hi sl sh k m s x : keep_r lo hi sl sh (m + k) s (x + k) = keep_r lo hi sl sh m s x.
Proof.
  apply eq_true_iff_eq. rewrite !keep_r_spec. destruct sl, sh; split; intros [? ?]; split; lra.
Qed.

Lemma keep_scale lv st k m s x : k <> 0 ->
  keep_r lv lv st st (k * m) (Rabs k * s) (k * x) = keep_r lv lv st st m s x.
Proof.
  intros Hk. apply eq_true_iff_eq. rewrite !keep_r_spec.
  destruct (Rlt_dec 0 k) as [Hp|Hn].
  - rewrite (Rabs_pos_eq k) by lra. destruct st; split; intros [? ?]; split; nra.
  - assert (k < 0) by lra. rewrite (Rabs_left k) by lra. destruct st; split; intros [? ?]; split; nra.
Qed.

Section Clip.
  Variables (lo hi : Z) (sl sh : bool) (reps : Z).
  Notation sc := (sigmaclip_r lo hi sl sh reps).

  Lemma sigmaclip_shift l k : l <> [] ->
    sc (map (fun x => x + k) l) = (fst (sc l) + k, snd (sc l)).
  Proof.
    intros H. unfold sigmaclip_r, clip. fold mean_r. rewrite mean_shift, std_shift by exact H.
    apply (clip_loop_equiv (keep_r lo hi sl sh) (fun x => x + k) (fun x => x + k) (fun x => x)).
    - intros. apply keep_shift.
    - intros. apply mean_shift. assumption.
    - intros. apply std_shift. assumption.
  Qed.

  Lemma sigmaclip_inv (Px Pm Ps : R -> Prop) l :
    (forall l, l <> [] -> Forall Px l -> Pm (mean_r l) /\ Ps (std_r l)) ->
    l <> [] -> Forall Px l -> Pm (fst (sc l)) /\ Ps (snd (sc l)).
  Proof. intros H Hl HF. destruct (H l Hl HF). apply (clip_loop_inv _ Px); assumption. Qed.

  Lemma sigmaclip_range l a b : l <> [] -> Forall (fun x => a <= x <= b) l -> a <= fst (sc l) <= b.
  Proof.
    intros H HF. apply (sigmaclip_inv (fun x => a <= x <= b) (fun m => a <= m <= b) (fun _ => True)); try assumption.
    intros l' Hl' HF'. split; [apply mean_range; assumption | exact I].
  Qed.

  Lemma sigmaclip_std_range l M : l <> [] -> Forall (fun x => - M <= x <= M) l -> 0 <= snd (sc l) <= M.
  Proof.
    intros H HF. apply (sigmaclip_inv (fun x => - M <= x <= M) (fun _ => True) (fun s => 0 <= s <= M)); try assumption.
    intros l' Hl' HF'. split; [exact I | apply std_range; assumption].
  Qed.
End Clip.

Lemma map_scale0 (l : list R) : map (fun x => 0 * x) l = map (fun _ => 0) l.
Proof. apply map_ext. intros. ring. Qed.

Lemma sum_zero (l : list R) : sumr (map (fun _ => 0) l) = 0.
Proof. induction l as [|a l IH]; cbn [map]; [reflexivity | rewrite sumr_cons, IH; ring]. Qed.

Lemma filter_all_false {A} (p : A -> bool) l : (forall x, In x l -> p x = false) -> filter p l = [].
Proof.
  induction l as [|a l IH]; intros H; cbn [filter]; [reflexivity|].
  rewrite (H a) by (left; reflexivity). apply IH. intros x Hx. apply H. right. exact Hx.
Qed.

Lemma sigmaclip_scale lv st reps l k : l <> [] ->
  sigmaclip_r lv lv st st reps (map (fun x => k * x) l)
  = (k * fst (sigmaclip_r lv lv st st reps l), Rabs k * snd (sigmaclip_r lv lv st st reps l)).
Proof.
  intros H. destruct (Req_dec k 0) as [->|Hk].
  - (* all zeros: the clipped mean lies in [0, 0] and the clipped deviation in [0, 0] *)
    rewrite Rabs_R0, !Rmult_0_l.
    assert (Hl : map (fun x => 0 * x) l <> []) by (destruct l; [congruence | discriminate]).
    assert (HF : forall a, a = 0 -> Forall (fun x => a <= x <= 0) (map (fun x => 0 * x) l)).
    { intros a ->. apply Forall_forall. intros x Hx. apply in_map_iff in Hx as [y [<- _]]. lra. }
    pose proof (sigmaclip_range lv lv st st reps _ 0 0 Hl (HF 0 eq_refl)) as Hm.
    pose proof (sigmaclip_std_range lv lv st st reps _ 0 Hl (HF (- 0) Ropp_0)) as Hs.
    destruct (sigmaclip_r lv lv st st reps (map (fun x => 0 * x) l)) as [a b]. cbn [fst snd] in *.
    f_equal; lra.
  - unfold sigmaclip_r, clip. fold mean_r. rewrite mean_scale, std_scale by exact H.
    apply (clip_loop_equiv (keep_r lv lv st st) (fun x => k * x) (fun x => k * x) (fun x => Rabs k * x)).
    + intros. apply keep_scale. exact Hk.
    + intros. apply mean_scale. assumption.
    + intros. apply std_scale. assumption.
Qed.
