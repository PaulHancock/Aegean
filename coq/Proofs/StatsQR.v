(* The executable sigma clipping over Q (mean and variance, comparisons decided by squares, Lib/Stats.sigmaclip_q)
   computes the real-valued one (mean and standard deviation, comparisons as written in the source,
   Lib/Stats.sigmaclip_r): Q2R commutes with every step. *)
From Coq Require Import ZArith QArith Qreals Reals Lra Lia List Bool.
From Aegean Require Lib.QBase.
From Aegean Require Import Lib.Stats Lib.Lists Proofs.StatsProofs.
Import ListNotations.
Open Scope R_scope.

Lemma Q2R_red q : Q2R (Qred q) = Q2R q.
Proof. apply Qeq_eqR. apply Qred_correct. Qed.

Lemma Q2R_injZ z : Q2R (inject_Z z) = IZR z.
Proof. unfold Q2R, inject_Z. cbn. field. Qed.

Lemma Q2R_ofnat n : Q2R (q_ofnat n) = INR n.
Proof. unfold q_ofnat. rewrite Q2R_injZ. symmetry. apply INR_IZR_INZ. Qed.

Lemma ofnat_nonzero {A} (l : list A) : l <> [] -> ~ (q_ofnat (length l) == 0)%Q.
Proof.
  intros H E. destruct l; [congruence|]. unfold q_ofnat, Qeq in E. cbn [length Qnum Qden inject_Z] in E. lia.
Qed.

Lemma sum_q2r (f : Q -> Q) l : Q2R (sum Q 0%Q qadd (map f l)) = sumr (map (fun x => Q2R (f x)) l).
Proof.
  induction l as [|a l IH]; cbn [map].
  - unfold Q2R. cbn. lra.
  - rewrite sumr_cons. unfold sum in *. cbn [fold_right]. unfold qadd at 1. rewrite Q2R_red, Q2R_plus, IH. reflexivity.
Qed.

Lemma mean_q2r l : l <> [] -> Q2R (mean_q l) = mean_r (map Q2R l).
Proof.
  intros H. unfold mean_q, mean_r, mean. rewrite Q2R_div by (apply ofnat_nonzero; exact H).
  rewrite Q2R_ofnat, map_length. f_equal.
  rewrite <- (map_id l) at 1. rewrite (sum_q2r (fun x => x) l). reflexivity.
Qed.

Lemma var_q2r l : l <> [] -> Q2R (var_q l) = var_r (map Q2R l).
Proof.
  intros H. unfold var_q, var_r, var. fold mean_q. fold mean_r.
  rewrite Q2R_div by (apply ofnat_nonzero; exact H). rewrite Q2R_ofnat, map_length. f_equal.
  rewrite (sum_q2r (fun x => ((x - mean_q l) * (x - mean_q l))%Q) l), map_map. f_equal.
  apply map_ext. intros x. rewrite Q2R_mult, Q2R_minus, (mean_q2r l H). reflexivity.
Qed.

Lemma std_q2r l : l <> [] -> std_r (map Q2R l) = sqrt (Q2R (var_q l)).
Proof. intros H. unfold std_r. rewrite var_q2r by exact H. reflexivity. Qed.

Lemma var_q_nonneg l : l <> [] -> 0 <= Q2R (var_q l).
Proof. intros H. rewrite var_q2r by exact H. apply var_nonneg. destruct l; [congruence | discriminate]. Qed.

Lemma Qltb_lt a b : Qltb a b = true <-> (a < b)%Q.
Proof. exact (QBase.Qltb_lt a b). Qed.

Lemma qcmp_spec strict a b : qcmp strict a b = true <-> (if strict then Q2R a < Q2R b else Q2R a <= Q2R b).
Proof.
  unfold qcmp. destruct strict.
  - rewrite Qltb_lt. split; [apply Qlt_Rlt | apply Rlt_Qlt].
  - rewrite Qle_bool_iff. split; [apply Qle_Rle | apply Rle_Qle].
Qed.

Lemma sq_cmp (strict : bool) d t : 0 <= t ->
  (if strict then d < 0 else d <= 0) \/ (if strict then d * d < t * t else d * d <= t * t) <->
  (if strict then d < t else d <= t).
Proof.
  intros Ht. destruct strict; split.
  - intros [H|H]; [lra | nra].
  - intros H. destruct (Rlt_dec d 0); [left; assumption | right; nra].
  - intros [H|H]; [lra | nra].
  - intros H. destruct (Rle_dec d 0); [left; assumption | right; nra].
Qed.

Lemma keep_side strict (a b : Q) (lv : Z) (v : Q) : (0 <= lv)%Z -> 0 <= Q2R v ->
  qcmp strict a b || qcmp strict ((a - b) * (a - b)) (inject_Z (lv * lv) * v) = true <->
  (if strict then Q2R a - Q2R b < sqrt (Q2R v) * IZR lv else Q2R a - Q2R b <= sqrt (Q2R v) * IZR lv).
Proof.
  intros Hlv Hv. rewrite orb_true_iff, !qcmp_spec.
  assert (HT : 0 <= sqrt (Q2R v) * IZR lv) by (apply Rmult_le_pos; [apply sqrt_pos | apply IZR_le; exact Hlv]).
  rewrite <- (sq_cmp strict _ _ HT), Q2R_mult, Q2R_minus, Q2R_mult, Q2R_injZ, mult_IZR.
  replace (sqrt (Q2R v) * IZR lv * (sqrt (Q2R v) * IZR lv)) with (IZR lv * IZR lv * Q2R v)
    by (rewrite <- (sqrt_sqrt (Q2R v) Hv) at 1; ring).
  destruct strict; split; (intros [H|H]; [left; lra | right; exact H]).
Qed.

Lemma keep_q_is_r lo hi sl sh m v x : (0 <= lo)%Z -> (0 <= hi)%Z -> 0 <= Q2R v ->
  keep_q lo hi sl sh m v x = keep_r lo hi sl sh (Q2R m) (sqrt (Q2R v)) (Q2R x).
Proof.
  intros Hlo Hhi Hv. apply eq_true_iff_eq. rewrite keep_r_spec. unfold keep_q.
  rewrite andb_true_iff, !keep_side by assumption.
  destruct sl, sh; split; intros [A B]; split; lra.
Qed.

Section Link.
  Variables (lo hi : Z) (sl sh : bool).
  Hypothesis Hlo : (0 <= lo)%Z.
  Hypothesis Hhi : (0 <= hi)%Z.

  Lemma clip_loop_q2r reps : forall l m v, 0 <= Q2R v ->
    clip_loop R 0 Rplus Rdiv INR std_r (keep_r lo hi sl sh) reps (map Q2R l) (Q2R m) (sqrt (Q2R v))
    = (Q2R (fst (clip_loop Q 0%Q qadd Qdiv q_ofnat var_q (keep_q lo hi sl sh) reps l m v)),
       sqrt (Q2R (snd (clip_loop Q 0%Q qadd Qdiv q_ofnat var_q (keep_q lo hi sl sh) reps l m v)))).
  Proof.
    induction reps as [|n IH]; intros l m v Hv; cbn [clip_loop]; [reflexivity|].
    rewrite filter_map_comm, (filter_ext _ (keep_q lo hi sl sh m v))
      by (intros; symmetry; apply keep_q_is_r; assumption).
    destruct (filter (keep_q lo hi sl sh m v) l) as [|a l'] eqn:E; cbn [map]; [reflexivity|].
    change (Q2R a :: map Q2R l') with (map Q2R (a :: l')). rewrite !map_length.
    destruct (Nat.eqb (length (a :: l')) (length l)); [reflexivity|].
    fold mean_r. fold mean_q. assert (Hne : a :: l' <> []) by discriminate.
    rewrite <- (mean_q2r _ Hne), (std_q2r _ Hne). apply IH, var_q_nonneg, Hne.
  Qed.

  Lemma sigmaclip_q2r reps l : l <> [] ->
    sigmaclip_r lo hi sl sh reps (map Q2R l)
    = (Q2R (fst (sigmaclip_q lo hi sl sh reps l)), sqrt (Q2R (snd (sigmaclip_q lo hi sl sh reps l)))).
  Proof.
    intros H. unfold sigmaclip_r, sigmaclip_q, clip. cbn [fst snd]. rewrite !Q2R_red.
    fold mean_r. fold mean_q. rewrite <- (mean_q2r l H), (std_q2r l H). apply clip_loop_q2r, var_q_nonneg, H.
  Qed.
End Link.
