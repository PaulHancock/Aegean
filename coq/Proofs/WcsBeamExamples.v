(* concrete headers for the non-vacuity examples of Props/C16x.v *)
From Coq Require Import Reals ZArith List Bool Lra Lia.
From Aegean Require Import Lib.RBase Gen.WcsBeam Model.WcsBeam Proofs.WcsBeamProofs.
Import ListNotations.
Open Scope R_scope.

Definition ex_header : header :=
  mkH (fun k => match k with CDELT1 | CDELT2 | BMAJ | BMIN => true | _ => false end)
      (fun k => match k with CDELT1 => -2 | CDELT2 => 3 | BMAJ => 2 | BMIN => 1 | _ => 0 end).
Definition ex_line : hline := mkL true true (fun k => IZR k + 1).

Lemma ex_header_facts :
  m_from_header_beam None ex_header None = BSome (2, 1, 0) /\ m_pixinfo ex_header = (6, (-2, 3)).
Proof.
  split.
  - destruct (beam_priority None ex_header None) as [_ [H _]]. rewrite H; try reflexivity; cbn; lra.
  - rewrite pixinfo_cdelt by reflexivity. cbn [val ex_header]. f_equal.
    unfold Rabs. destruct (Rcase_abs (-2 * 3)); lra.
Qed.
Lemma ex_line_facts :
  pres ex_header BMAJ && pres ex_header BMIN && pres ex_header BPA = false /\
  l_prefix ex_line && l_marker ex_line = true /\ l_word ex_line 3 = 4.
Proof. repeat split. cbn. lra. Qed.
Lemma psf_cell_centre_both shape r c : (0 <= r)%Z -> (0 <= c)%Z ->
  m_psf_cell shape (c + 1) (r + 1) 1 = (Z.min (r + 1) (shape 1%Z - 1), Z.min (c + 1) (shape 2%Z - 1)) /\
  ((r < shape 1%Z)%Z -> (c < shape 2%Z)%Z -> nearest_cell shape (c + 1) (r + 1) 1 = (r, c)).
Proof.
  intros Hr Hc. split; [apply psf_cell_centre; assumption|]. intros H1 H2. apply nearest_centre; lia.
Qed.
