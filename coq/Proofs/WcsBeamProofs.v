(* C16x: beam, pixel-scale and separation helpers of wcs_helpers.py (Model/WcsBeam.v).  First one characterising lemma
   `leaf_*` per generated leaf of Gen/WcsBeam.v (a changed leaf breaks exactly that lemma); the leaves are opaque in the rest
   of this file, which covers sky_sep, get_pixinfo, get_beam / from_header, fix_aips_header, the beam areas and the psf map
   lookup, in that order. *)
From Coq Require Import Reals ZArith List Bool Lra Lia String.
From Aegean Require Import Lib.RBase Gen.Sphere Lib.Sphere Gen.WcsHelper Gen.WcsBeam Model.WcsHelper Model.WcsBeam
  Proofs.WcsHelperProofs.
Import ListNotations.
Open Scope R_scope.

Lemma leaf_sky_sep p2s a b :
  sky_sep p2s a b = gcd (fst (p2s a)) (snd (p2s a)) (fst (p2s b)) (snd (p2s b)).
Proof. reflexivity. Qed.
Lemma leaf_beamarea_deg2 a b : beamarea_deg2 a b = a * b * PI.
Proof. reflexivity. Qed.
Lemma leaf_beamarea_pix a b : beamarea_pix a b = a * b * PI.
Proof. reflexivity. Qed.
Lemma leaf_pixinfo_keys : pixinfo_keys = [[CDELT1; CDELT2]; [CD1_1; CD1_2; CD2_1; CD2_2]; [CD1_1; CD2_2]].
Proof. reflexivity. Qed.
Lemma leaf_pixinfo_cdelt h :
  pixinfo_area 0 h = Rabs (h CDELT1 * h CDELT2) /\ pixinfo_scale 0 h = (h CDELT1, h CDELT2).
Proof. split; reflexivity. Qed.
Lemma leaf_pixinfo_cd4 h :
  pixinfo_area 1 h = Rabs (h CD1_1 * h CD2_2 - h CD1_2 * h CD2_1) /\ pixinfo_scale 1 h = (h CD1_1, h CD2_2).
Proof. split; reflexivity. Qed.
Lemma leaf_pixinfo_cd2 h :
  pixinfo_area 2 h = Rabs (h CD1_1 * h CD2_2) /\ pixinfo_scale 2 h = (h CD1_1, h CD2_2).
Proof. split; reflexivity. Qed.
Lemma leaf_pixinfo_else h : pixinfo_area 3 h = 0 /\ pixinfo_scale 3 h = (0, 0).
Proof. split; reflexivity. Qed.
Lemma leaf_get_beam_keys :
  get_beam_key_bmaj = BMAJ /\ get_beam_key_bmin = BMIN /\ get_beam_key_bpa = BPA.
Proof. repeat split; reflexivity. Qed.
Lemma leaf_get_beam_defaults :
  get_beam_default_bmaj = None /\ get_beam_default_bmin = None /\ get_beam_default_bpa = Some 0.
Proof. repeat split; reflexivity. Qed.
Lemma leaf_get_beam_ctor a b pa : get_beam_ctor a b pa = (a, b, pa).
Proof. reflexivity. Qed.
Lemma leaf_beam_ok a b pa : beam_ok a b pa = Rltb 0 a && Rltb 0 b.
Proof. reflexivity. Qed.
Lemma leaf_beam_attrs a b pa : beam_attrs a b pa = (a, b, pa).
Proof. reflexivity. Qed.
Lemma leaf_aips_skip : aips_skip_keys = [BMAJ; BMIN; BPA].
Proof. reflexivity. Qed.
Lemma leaf_aips_strings : aips_prefix = "AIPS"%string /\ aips_marker = "BMAJ"%string.
Proof. split; reflexivity. Qed.
Lemma leaf_aips_sets : aips_sets = [(BMAJ, 3%Z); (BMIN, 5%Z); (BPA, 7%Z)].
Proof. reflexivity. Qed.
Lemma leaf_from_header :
  from_header_explicit_beam_wins = true /\ from_header_none_raises = true /\ from_header_consults_history = false /\
  from_header_refpix = (CRPIX1, CRPIX2).
Proof. repeat split; reflexivity. Qed.
Lemma leaf_psf_sky2pix : psf_sky2pix_swaps = true /\ psf_sky2pix_origin = 1%Z /\ (forall p0 p1, psf_sky2pix_ret p0 p1 = (p1, p0)).
Proof. repeat split; reflexivity. Qed.
Lemma leaf_psf_clip_x n : psf_shape_axis_x = 1%Z /\ psf_clip_lo_x = 0%Z /\ psf_clip_hi_x n = (n - 1)%Z.
Proof. repeat split; reflexivity. Qed.
Lemma leaf_psf_clip_y n : psf_shape_axis_y = 2%Z /\ psf_clip_lo_y = 0%Z /\ psf_clip_hi_y n = (n - 1)%Z.
Proof. repeat split; reflexivity. Qed.
Lemma leaf_psf_lookup : psf_planes = 3%Z /\ psf_index_x_first = true.
Proof. split; reflexivity. Qed.

Local Opaque sky_sep beamarea_deg2 beamarea_pix pixinfo_keys pixinfo_area pixinfo_scale get_beam_key_bmaj get_beam_key_bmin
  get_beam_key_bpa get_beam_default_bmaj get_beam_default_bmin get_beam_default_bpa get_beam_ctor beam_ok beam_attrs aips_skip_keys
  aips_sets from_header_explicit_beam_wins from_header_none_raises from_header_consults_history from_header_refpix psf_sky2pix_swaps
  psf_sky2pix_origin psf_clip_lo_x psf_clip_hi_x psf_shape_axis_x psf_clip_lo_y psf_clip_hi_y psf_shape_axis_y psf_index_x_first.

Lemma m_pix2sky_eq P x y : m_pix2sky P (x, y) = P (y, x).
Proof. exact (fits_pix2sky_eq P x y). Qed.

Lemma m_sky_sep_eq P x1 y1 x2 y2 :
  m_sky_sep P (x1, y1) (x2, y2) = gcd (fst (P (y1, x1))) (snd (P (y1, x1))) (fst (P (y2, x2))) (snd (P (y2, x2))).
Proof. unfold m_sky_sep. rewrite leaf_sky_sep, !m_pix2sky_eq. reflexivity. Qed.

Lemma pixinfo_branch_eq p :
  pixinfo_branch p =
  if p CDELT1 && p CDELT2 then 0%nat else if p CD1_1 && (p CD1_2 && (p CD2_1 && p CD2_2)) then 1%nat
  else if p CD1_1 && p CD2_2 then 2%nat else 3%nat.
Proof. unfold pixinfo_branch. rewrite leaf_pixinfo_keys. cbn [first_branch forallb]. rewrite !andb_true_r. reflexivity. Qed.
Lemma m_pixinfo_at h k : pixinfo_branch (pres h) = k -> m_pixinfo h = (pixinfo_area k (val h), pixinfo_scale k (val h)).
Proof. intros <-. reflexivity. Qed.

Lemma pixinfo_cdelt h : pres h CDELT1 = true -> pres h CDELT2 = true ->
  m_pixinfo h = (Rabs (val h CDELT1 * val h CDELT2), (val h CDELT1, val h CDELT2)).
Proof.
  intros H1 H2. rewrite (m_pixinfo_at h 0%nat) by (rewrite pixinfo_branch_eq, H1, H2; reflexivity).
  destruct (leaf_pixinfo_cdelt (val h)) as [-> ->]. reflexivity.
Qed.
(* otherwise a full CD matrix: the area is |det CD| (the true area of a pixel of the linear part), the scale is the diagonal *)
Lemma pixinfo_cd4 h : pres h CDELT1 && pres h CDELT2 = false ->
  pres h CD1_1 = true -> pres h CD1_2 = true -> pres h CD2_1 = true -> pres h CD2_2 = true ->
  m_pixinfo h = (Rabs (val h CD1_1 * val h CD2_2 - val h CD1_2 * val h CD2_1), (val h CD1_1, val h CD2_2)).
Proof.
  intros H0 H1 H2 H3 H4. rewrite (m_pixinfo_at h 1%nat) by (rewrite pixinfo_branch_eq, H0, H1, H2, H3, H4; reflexivity).
  destruct (leaf_pixinfo_cd4 (val h)) as [-> ->]. reflexivity.
Qed.
Lemma pixinfo_cd2 h : pres h CDELT1 && pres h CDELT2 = false -> pres h CD1_2 && pres h CD2_1 = false ->
  pres h CD1_1 = true -> pres h CD2_2 = true ->
  m_pixinfo h = (Rabs (val h CD1_1 * val h CD2_2), (val h CD1_1, val h CD2_2)).
Proof.
  intros H0 H1 H2 H3.
  rewrite (m_pixinfo_at h 2%nat) by (rewrite pixinfo_branch_eq, H0, H2, H3, andb_true_r; cbn [andb]; rewrite H1; reflexivity).
  destruct (leaf_pixinfo_cd2 (val h)) as [-> ->]. reflexivity.
Qed.
Lemma pixinfo_none h : pres h CDELT1 && pres h CDELT2 = false -> pres h CD1_1 && pres h CD2_2 = false ->
  m_pixinfo h = (0, (0, 0)).
Proof.
  intros H0 H1. rewrite (m_pixinfo_at h 3%nat).
  - destruct (leaf_pixinfo_else (val h)) as [-> ->]. reflexivity.
  - rewrite pixinfo_branch_eq, H0, H1. destruct (pres h CD1_1); cbn [andb] in *; [rewrite H1, !andb_false_r|]; reflexivity.
Qed.

Lemma pixinfo_cdelt_cd_agree h h' :
  pres h CDELT1 && pres h CDELT2 = false ->
  pres h CD1_1 = true -> pres h CD1_2 = true -> pres h CD2_1 = true -> pres h CD2_2 = true ->
  val h CD1_2 = 0 -> val h CD2_1 = 0 ->
  pres h' CDELT1 = true -> pres h' CDELT2 = true -> val h' CDELT1 = val h CD1_1 -> val h' CDELT2 = val h CD2_2 ->
  m_pixinfo h = m_pixinfo h'.
Proof.
  intros H0 H1 H2 H3 H4 Z1 Z2 P1 P2 V1 V2.
  rewrite (pixinfo_cd4 h H0 H1 H2 H3 H4), (pixinfo_cdelt h' P1 P2), Z1, Z2, V1, V2.
  f_equal. f_equal. ring.
Qed.

(* a rotated CD matrix (scale s, angle t, the usual handedness): the area is the true s^2, but the pixscale is (-s cos t, s cos t),
   not (-s, s): the true scale along axis 1, hypot CD1_1 CD2_1, is |CD1_1| only when CD2_1 = 0 *)
Lemma pixinfo_rotated h s t : pres h CDELT1 && pres h CDELT2 = false ->
  pres h CD1_1 = true -> pres h CD1_2 = true -> pres h CD2_1 = true -> pres h CD2_2 = true ->
  val h CD1_1 = - s * cos t -> val h CD1_2 = s * sin t -> val h CD2_1 = s * sin t -> val h CD2_2 = s * cos t ->
  m_pixinfo h = (s * s, (- s * cos t, s * cos t)).
Proof.
  intros H0 H1 H2 H3 H4 V1 V2 V3 V4. rewrite (pixinfo_cd4 h H0 H1 H2 H3 H4), V1, V2, V3, V4.
  f_equal.
  replace (- s * cos t * (s * cos t) - s * sin t * (s * sin t)) with (- (s * s * ((sin t)² + (cos t)²))) by (unfold Rsqr; ring).
  rewrite sin2_cos2, Rabs_Ropp, Rmult_1_r. apply Rabs_pos_eq. nra.
Qed.

Lemma get_beam_table h :
  m_get_beam h =
  if pres h BMAJ && pres h BMIN then
    if Rltb 0 (val h BMAJ) && Rltb 0 (val h BMIN)
    then BSome (val h BMAJ, val h BMIN, if pres h BPA then val h BPA else 0) else BRaise
  else BNone.
Proof.
  unfold m_get_beam, slot. destruct leaf_get_beam_keys as [-> [-> ->]]. destruct leaf_get_beam_defaults as [-> [-> ->]].
  destruct (pres h BMAJ), (pres h BMIN), (pres h BPA); cbn [andb]; try reflexivity;
    rewrite leaf_get_beam_ctor; unfold mk_beam; rewrite leaf_beam_ok, leaf_beam_attrs; reflexivity.
Qed.
Lemma get_beam_none_iff h : m_get_beam h = BNone <-> pres h BMAJ = false \/ pres h BMIN = false.
Proof.
  rewrite get_beam_table. destruct (pres h BMAJ), (pres h BMIN); cbn [andb]; split; intros H; auto;
    try (destruct H; discriminate); destruct (Rltb 0 (val h BMAJ) && Rltb 0 (val h BMIN)); discriminate.
Qed.
Lemma from_header_beam_eq arg h hist :
  m_from_header_beam arg h hist =
  match arg with Some b => BSome b | None => match m_get_beam h with BNone => BRaise | r => r end end.
Proof.
  unfold m_from_header_beam. destruct leaf_from_header as [-> [-> [-> _]]]. destruct arg; reflexivity.
Qed.
Lemma beam_src_eq arg p : m_beam_src arg p = if arg then 0%Z else if p BMAJ && p BMIN then 1%Z else 2%Z.
Proof.
  unfold m_beam_src, avail. destruct leaf_from_header as [-> _]. destruct leaf_get_beam_keys as [-> [-> ->]].
  destruct leaf_get_beam_defaults as [-> [-> ->]]. destruct arg; cbn [andb]; [reflexivity|].
  rewrite !orb_false_r, orb_true_r, andb_true_r. reflexivity.
Qed.

Lemma beam_priority (arg : option (R * R * R)) h hist :
  (forall b, arg = Some b -> m_from_header_beam arg h hist = BSome b) /\
  (arg = None -> pres h BMAJ = true -> pres h BMIN = true -> 0 < val h BMAJ -> 0 < val h BMIN ->
   m_from_header_beam arg h hist = BSome (val h BMAJ, val h BMIN, if pres h BPA then val h BPA else 0)) /\
  (arg = None -> pres h BMAJ = true -> pres h BMIN = true -> (val h BMAJ <= 0 \/ val h BMIN <= 0) ->
   m_from_header_beam arg h hist = BRaise) /\
  (arg = None -> (pres h BMAJ = false \/ pres h BMIN = false) -> m_from_header_beam arg h hist = BRaise) /\
  (forall hist', m_from_header_beam arg h hist' = m_from_header_beam arg h hist) /\
  m_beam_src (match arg with Some _ => true | None => false end) (pres h) =
    match arg with Some _ => 0%Z | None => if pres h BMAJ && pres h BMIN then 1%Z else 2%Z end.
Proof.
  split; [|split; [|split; [|split; [|split]]]].
  - intros b ->. rewrite from_header_beam_eq. reflexivity.
  - intros -> H1 H2 Ha Hb. apply Rltb_true in Ha, Hb. rewrite from_header_beam_eq, get_beam_table, H1, H2, Ha, Hb. reflexivity.
  - intros -> H1 H2 Hab. rewrite from_header_beam_eq, get_beam_table, H1, H2.
    destruct Hab as [H|H]; apply Rltb_false in H; rewrite H, ?andb_false_r; reflexivity.
  - intros -> H. rewrite from_header_beam_eq. apply get_beam_none_iff in H. rewrite H. reflexivity.
  - intros hist'. rewrite !from_header_beam_eq. reflexivity.
  - rewrite beam_src_eq. destruct arg; reflexivity.
Qed.

Lemma fix_pick_skip p hist : p BMAJ = true -> p BMIN = true -> p BPA = true -> m_fix_pick p hist = (-1)%Z.
Proof. intros H1 H2 H3. unfold m_fix_pick. rewrite leaf_aips_skip. cbn [forallb]. rewrite H1, H2, H3. reflexivity. Qed.
Lemma fix_pick_else p hist : p BMAJ && p BMIN && p BPA = false ->
  m_fix_pick p hist = match hist with
                      | None => (-2)%Z
                      | Some ls => match find_idx (fun l => fst l && snd l) ls 0%Z with None => (-1)%Z | Some k => k end
                      end.
Proof.
  intros H. unfold m_fix_pick. rewrite leaf_aips_skip. cbn [forallb]. rewrite andb_true_r, andb_assoc, H. reflexivity.
Qed.
Lemma find_idx_app {A} (f : A -> bool) pre l post k :
  Forall (fun x => f x = false) pre -> f l = true -> find_idx f (pre ++ l :: post) k = Some (k + Z.of_nat (List.length pre))%Z.
Proof.
  intros Hp Hl. revert k. induction Hp as [|a pre Ha _ IH]; intros k; cbn [app find_idx List.length].
  - rewrite Hl. f_equal. cbn. lia.
  - rewrite Ha, IH. f_equal. lia.
Qed.
Lemma find_idx_none {A} (f : A -> bool) ls k : Forall (fun x => f x = false) ls -> find_idx f ls k = None.
Proof. intros H. revert k. induction H as [|a r Ha _ IH]; intros k; cbn [find_idx]; [reflexivity|]. rewrite Ha. apply IH. Qed.

Lemma fix_aips_complete h hist : pres h BMAJ = true -> pres h BMIN = true -> pres h BPA = true ->
  m_fix_aips h hist = Some (h, false).
Proof. intros H1 H2 H3. unfold m_fix_aips. rewrite fix_pick_skip by assumption. reflexivity. Qed.
Lemma fix_aips_no_history h : pres h BMAJ && pres h BMIN && pres h BPA = false -> m_fix_aips h None = None.
Proof. intros H. unfold m_fix_aips. cbn [option_map]. rewrite fix_pick_else by assumption. reflexivity. Qed.
Lemma fix_aips_no_line h ls : pres h BMAJ && pres h BMIN && pres h BPA = false ->
  Forall (fun l => l_prefix l && l_marker l = false) ls -> m_fix_aips h (Some ls) = Some (h, false).
Proof.
  intros H Hl. unfold m_fix_aips. cbn [option_map]. rewrite fix_pick_else by assumption.
  rewrite find_idx_none; [reflexivity | apply Forall_map, Hl].
Qed.
Lemma fix_aips_first_line h pre l post : pres h BMAJ && pres h BMIN && pres h BPA = false ->
  Forall (fun x => l_prefix x && l_marker x = false) pre -> l_prefix l && l_marker l = true ->
  exists h', m_fix_aips h (Some (pre ++ l :: post)) = Some (h', true) /\
    pres h' BMAJ = true /\ pres h' BMIN = true /\ pres h' BPA = true /\
    val h' BMAJ = l_word l 3 /\ val h' BMIN = l_word l 5 /\ val h' BPA = l_word l 7 /\
    (forall k, k <> BMAJ -> k <> BMIN -> k <> BPA -> pres h' k = pres h k /\ val h' k = val h k) /\
    m_get_beam h' = mk_beam (l_word l 3) (l_word l 5) (l_word l 7).
Proof.
  intros H Hp Hl. unfold m_fix_aips. cbn [option_map]. rewrite fix_pick_else by assumption.
  rewrite map_app. cbn [map].
  rewrite (find_idx_app (fun x : bool * bool => fst x && snd x) (map l_flags pre) (l_flags l) (map l_flags post) 0%Z);
    [|apply Forall_map, Hp | exact Hl].
  rewrite map_length. cbn [Z.add].
  replace (Z.of_nat (List.length pre) =? -2)%Z with false by (symmetry; apply Z.eqb_neq; lia).
  replace (Z.of_nat (List.length pre) =? -1)%Z with false by (symmetry; apply Z.eqb_neq; lia).
  rewrite Nat2Z.id, nth_middle, leaf_aips_sets. cbn [fold_left].
  eexists. split; [reflexivity|]. do 6 (split; [reflexivity|]). split; [|reflexivity].
  intros k H1 H2 H3. destruct k; try (split; reflexivity).
  - contradiction H1. reflexivity.
  - contradiction H2. reflexivity.
  - contradiction H3. reflexivity.
Qed.

Lemma beamarea_consistent sx sy s1 s2 :
  beamarea_deg2 (sx * s1) (sy * s2) = beamarea_pix sx sy * (s1 * s2).
Proof. rewrite leaf_beamarea_deg2, leaf_beamarea_pix. ring. Qed.
Lemma beamarea_pixarea h sx sy : pres h CDELT1 = true -> pres h CDELT2 = true ->
  beamarea_deg2 (sx * Rabs (val h CDELT1)) (sy * Rabs (val h CDELT2)) = beamarea_pix sx sy * fst (m_pixinfo h).
Proof.
  intros H1 H2. rewrite pixinfo_cdelt by assumption. cbn [fst]. rewrite Rabs_mult. apply beamarea_consistent.
Qed.
Lemma beamarea_is_pi_ab P S refpix ba bb bpa pos :
  let '(a, b, _) := m_psf_sky2sky P S refpix ba bb bpa pos in
  let '(sx, sy, _) := m_psf_pix P S refpix ba bb bpa in
  m_beamarea_deg2 P S refpix ba bb bpa pos = PI * a * b /\ m_beamarea_pix P S refpix ba bb bpa = PI * sx * sy.
Proof.
  unfold m_beamarea_deg2, m_beamarea_pix.
  destruct (m_psf_sky2sky P S refpix ba bb bpa pos) as [[a b] pa]. destruct (m_psf_pix P S refpix ba bb bpa) as [[sx sy] th].
  rewrite leaf_beamarea_deg2, leaf_beamarea_pix. split; ring.
Qed.

Open Scope Z_scope.
Lemma psf_index_int lo hi k : m_psf_index lo hi k 1 = Z.min (Z.max k lo) hi.
Proof. unfold m_psf_index. rewrite !Z.mul_1_r. apply Z.quot_1_r. Qed.
Lemma psf_index_floor lo hi num den : 0 <= lo -> 0 < den -> lo * den <= num <= hi * den ->
  m_psf_index lo hi num den = num / den.
Proof.
  intros H0 Hd [H1 H2]. unfold m_psf_index. rewrite Z.max_l, Z.min_l by lia.
  apply Z.quot_div_nonneg; nia.
Qed.
Lemma psf_index_range lo hi num den : 0 <= lo <= hi -> 0 < den -> lo <= m_psf_index lo hi num den <= hi.
Proof.
  intros [H0 H1] Hd. unfold m_psf_index.
  set (c := Z.min (Z.max num (lo * den)) (hi * den)).
  assert (Hc : lo * den <= c <= hi * den) by (unfold c; nia).
  rewrite Z.quot_div_nonneg by nia. split.
  - apply Z.div_le_lower_bound; lia.
  - apply Z.div_le_upper_bound; lia.
Qed.
(* the lookup: FITS axis 2 indexes array axis 1; both indices are clipped to the array and truncated *)
Lemma m_psf_cell_eq shape f1 f2 den :
  m_psf_cell shape f1 f2 den = (m_psf_index 0 (shape 1 - 1) f2 den, m_psf_index 0 (shape 2 - 1) f1 den).
Proof.
  unfold m_psf_cell. destruct leaf_psf_sky2pix as [-> [-> _]]. destruct leaf_psf_lookup as [_ ->].
  destruct (leaf_psf_clip_x (shape 1)) as (-> & -> & ->). destruct (leaf_psf_clip_y (shape 2)) as (-> & -> & ->).
  cbv zeta. replace ((1 - 1) * den) with 0 by ring. rewrite !Z.sub_0_r. reflexivity.
Qed.
(* the centre of the cell (r, c) of the psf map has FITS coordinates (c + 1, r + 1); the lookup uses the cell (r + 1, c + 1)
   (clipped to the array) *)
Lemma psf_cell_centre shape r c : 0 <= r -> 0 <= c ->
  m_psf_cell shape (c + 1) (r + 1) 1 = (Z.min (r + 1) (shape 1 - 1), Z.min (c + 1) (shape 2 - 1)).
Proof. intros Hr Hc. rewrite m_psf_cell_eq, !psf_index_int. f_equal; f_equal; lia. Qed.
(* in general (coordinates inside the map): the cell is the integer part of the 1-based FITS coordinate, used as a 0-based index *)
Lemma psf_cell_floor shape f1 f2 den : 0 < den -> 0 <= f2 <= (shape 1 - 1) * den -> 0 <= f1 <= (shape 2 - 1) * den ->
  m_psf_cell shape f1 f2 den = (f2 / den, f1 / den).
Proof. intros Hd H2 H1. rewrite m_psf_cell_eq, !psf_index_floor by lia. reflexivity. Qed.
Lemma nearest_centre shape r c : 0 <= r < shape 1 -> 0 <= c < shape 2 -> nearest_cell shape (c + 1) (r + 1) 1 = (r, c).
Proof.
  intros Hr Hc. unfold nearest_cell, nearest_index. rewrite !Z.mul_1_r.
  assert (Hh : forall k, (2 * k + 1) / 2 = k).
  { intros k. rewrite (Z.mul_comm 2 k), Z.div_add_l by lia. replace (1 / 2) with 0 by reflexivity. lia. }
  rewrite !Hh. f_equal; lia.
Qed.
