(* C16: certificate lemmas for the interval-certified correspondence of sky2pix_vec / pix2sky_vec / sky2pix_ellipse /
   pix2sky_ellipse with the real WCSHelper methods (tools/harness/c16.py).
   The harness records every wcslib call (argument, result) made by the real method.  A certificate says: for EVERY
   function F (= wcslib) that returns the recorded result at the exactly-representable first argument and maps the
   e-neighbourhood of each further recorded argument into the box [lo, hi] around the recorded result (`nearf`, the
   local continuity of wcslib, validated by sampling on every run), the model queries F inside those neighbourhoods
   and its outputs agree with the implementation's outputs within the stated tolerances.  The premises left to the
   per-case files are closed real inequalities, proved by `interval`. *)
From Coq Require Import Reals Lra Psatz.
From Aegean Require Import Lib.RBase Gen.Sphere Lib.Sphere Gen.WcsHelper Model.WcsHelper Proofs.WcsHelperProofs.
Open Scope R_scope.

Definition nearf (F : pt -> pt) (c : pt) (e : R) (lo hi : pt) : Prop :=
  forall q, Rabs (fst q - fst c) <= e -> Rabs (snd q - snd c) <= e ->
  fst lo <= fst (F q) <= fst hi /\ snd lo <= snd (F q) <= snd hi.

Lemma asin_between lo hi F :
  - (PI / 2) <= lo <= PI / 2 -> - (PI / 2) <= hi <= PI / 2 -> sin lo <= F <= sin hi -> lo <= asin F <= hi.
Proof.
  intros Hlo Hhi [H1 H2].
  assert (HF : -1 <= F <= 1) by (pose proof (SIN_bound lo); pose proof (SIN_bound hi); lra).
  pose proof (asin_bound F) as [Ha Hb]. pose proof (sin_asin F HF) as Hs.
  split.
  - destruct (Rle_dec lo (asin F)) as [|Hn]; [assumption|exfalso].
    assert (sin (asin F) < sin lo) by (apply sin_increasing_1; lra). lra.
  - destruct (Rle_dec (asin F) hi) as [|Hn]; [assumption|exfalso].
    assert (sin hi < sin (asin F)) by (apply sin_increasing_1; lra). lra.
Qed.

(* the point that the model hands to sky2pix lies within e of the recorded argument (qr, qd) *)
Lemma translate_near ra dec r th qr qd e :
  0 <= e -> -90 <= qd - e -> qd + e <= 90 ->
  0 < tr_x dec r th ->
  Rabs (ra + deg (atan (tr_y dec r th / tr_x dec r th)) - qr) <= e ->
  sin (rad (qd - e)) <= tr_factor dec r th <= sin (rad (qd + e)) ->
  Rabs (fst (translate ra dec r th) - qr) <= e /\ Rabs (snd (translate ra dec r th) - qd) <= e.
Proof.
  intros He Hlo Hhi Hx Hra HF. pose proof PI_RGT_0 as HPI. rewrite translate_eq. cbn [fst snd]. split.
  - unfold atan2. destruct (Rlt_dec 0 (tr_x dec r th)) as [_|Hn]; [exact Hra | contradiction].
  - assert (Hb : rad (qd - e) <= asin (tr_factor dec r th) <= rad (qd + e)).
    { apply asin_between; [unfold rad; split; nra | unfold rad; split; nra | exact HF]. }
    destruct Hb as [Hb1 Hb2]. apply deg_le in Hb1. apply deg_le in Hb2. rewrite deg_rad in Hb1, Hb2.
    apply Rabs_le. lra.
Qed.

Lemma gcd_between ra1 dec1 ra2 dec2 lo hi :
  0 <= lo <= 180 -> 0 <= hi <= 180 ->
  sin (rad lo / 2) <= sqrt (hav ra1 dec1 ra2 dec2) <= sin (rad hi / 2) ->
  lo <= gcd ra1 dec1 ra2 dec2 <= hi.
Proof.
  intros Hlo Hhi Hs. pose proof PI_RGT_0 as HPI.
  destruct (gcd_asin ra1 dec1 ra2 dec2) as [Hg _].
  assert (Hb : rad lo / 2 <= asin (sqrt (hav ra1 dec1 ra2 dec2)) <= rad hi / 2).
  { apply asin_between; [unfold rad; split; nra | unfold rad; split; nra | exact Hs]. }
  split; apply rad_le_iff; rewrite Hg; lra.
Qed.

(* agreement of an angle atan2 dy dx with a given angle b: |sin difference| <= ta and cos difference >= 0 *)
Lemma angle_close dy dx b ta :
  0 < dx * dx + dy * dy ->
  Rabs (dy * cos b - dx * sin b) <= ta * hypot dx dy -> 0 <= dx * cos b + dy * sin b ->
  Rabs (sin (atan2 dy dx - b)) <= ta /\ 0 <= cos (atan2 dy dx - b).
Proof.
  intros Hh Hc Hd. apply hypot_pos_iff in Hh. destruct (atan2_rotate dx dy b) as [E2 E1].
  set (h := hypot dx dy) in *.
  split.
  - rewrite <- E1, Rabs_mult, (Rabs_right h) in Hc by lra.
    apply Rmult_le_reg_l with h; [exact Hh|]. lra.
  - rewrite <- E2 in Hd. apply Rmult_le_reg_l with h; [exact Hh|]. lra.
Qed.

(* sky2pix_vec: recorded calls all_world2pix([(ra, dec)]) = (p0, p1) and all_world2pix([(qr, qd)]) in [lo, hi].
   (x, y) = (p1, p0) exactly (row, column); length within tl of L; angle within asin ta of TH (degrees) *)
Lemma cert_sky2pix_vec (P S : pt -> pt) ra dec r pa p0 p1 qr qd e lo hi L tl TH ta :
  S (ra, dec) = (p0, p1) ->
  nearf S (qr, qd) e lo hi ->
  (Rabs (fst (translate ra dec r pa) - qr) <= e /\ Rabs (snd (translate ra dec r pa) - qd) <= e) ->
  (forall u v, fst lo <= u <= fst hi -> snd lo <= v <= snd hi ->
     let dx := v - p1 in let dy := u - p0 in
     0 < dx * dx + dy * dy /\ Rabs (hypot dx dy - L) <= tl /\
     Rabs (dy * cos (rad TH) - dx * sin (rad TH)) - ta * hypot dx dy <= 0 /\
     0 <= dx * cos (rad TH) + dy * sin (rad TH)) ->
  let '(x, y, l, th) := sky2pix_vec (fits_pix2sky P) (fits_sky2pix S) (ra, dec) r pa in
  x = p1 /\ y = p0 /\ Rabs (l - L) <= tl /\ Rabs (sin (rad th - rad TH)) <= ta /\ 0 <= cos (rad th - rad TH).
Proof.
  intros H0 H1 [Hq1 Hq2] HC. rewrite sky2pix_vec_eq. cbv zeta. cbn [fst snd]. rewrite !fits_sky2pix_eq, H0. cbn [fst snd].
  set (q := translate ra dec r pa) in *.
  destruct (H1 q Hq1 Hq2) as [Hu Hv]. specialize (HC _ _ Hu Hv). cbv zeta in HC. destruct HC as [Hp [Hl [Hc Hd]]].
  split; [reflexivity|]. split; [reflexivity|]. split; [exact Hl|]. rewrite rad_deg. apply angle_close; try assumption; lra.
Qed.

(* pix2sky_vec: recorded calls all_pix2world([[y, x]]) = (ra1, dec1) and all_pix2world([[cy, cx]]) in [lo, hi] *)
Lemma cert_pix2sky_vec (P S : pt -> pt) x y r th ra1 dec1 cx cy e lo hi glo ghi B ta :
  P (y, x) = (ra1, dec1) ->
  nearf P (cy, cx) e lo hi ->
  Rabs (y + r * sin (rad th) - cy) <= e -> Rabs (x + r * cos (rad th) - cx) <= e ->
  0 <= glo <= 180 -> 0 <= ghi <= 180 ->
  (forall u v, fst lo <= u <= fst hi -> snd lo <= v <= snd hi ->
     sin (rad glo / 2) <= sqrt (hav ra1 dec1 u v) <= sin (rad ghi / 2) /\
     let by_ := bear_y ra1 dec1 u v in let bx := bear_x ra1 dec1 u v in
     0 < bx * bx + by_ * by_ /\ Rabs (by_ * cos (rad B) - bx * sin (rad B)) - ta * hypot bx by_ <= 0 /\
     0 <= bx * cos (rad B) + by_ * sin (rad B)) ->
  let '(ra, dec, l, pa) := pix2sky_vec (fits_pix2sky P) (fits_sky2pix S) (x, y) r th in
  ra = ra1 /\ dec = dec1 /\ glo <= l <= ghi /\ Rabs (sin (rad pa - rad B)) <= ta /\ 0 <= cos (rad pa - rad B).
Proof.
  intros H0 H1 Hq1 Hq2 Hlo Hhi HC. rewrite pix2sky_vec_eq. cbv zeta. cbn [fst snd]. rewrite !fits_pix2sky_eq, H0. cbn [fst snd].
  set (q := (y + r * sin (rad th), x + r * cos (rad th))) in *.
  destruct (H1 q Hq1 Hq2) as [Hu Hv]. specialize (HC _ _ Hu Hv). cbv zeta in HC. destruct HC as [Hg [Hp [Hc Hd]]].
  split; [reflexivity|]. split; [reflexivity|]. split; [apply gcd_between; assumption|].
  rewrite bear_eq, rad_deg. apply angle_close; try assumption; lra.
Qed.

(* closed forms of the two non-orthogonality corrections (no atan2 left: interval-friendly) *)
Lemma sy_formula dxA dyA dxB dyB : 0 < dxA * dxA + dyA * dyA ->
  Rabs (dyB * cos (atan2 dyA dxA) - dxB * sin (atan2 dyA dxA)) = Rabs (dyB * dxA - dxB * dyA) / hypot dxA dyA.
Proof.
  intros Hh. apply hypot_pos_iff in Hh. destruct (atan2_polar_dec dxA dyA) as [H1 H2].
  set (h := hypot dxA dyA) in *. set (f := atan2 dyA dxA) in *.
  replace (dyB * dxA - dxB * dyA) with (h * (dyB * cos f - dxB * sin f)) by (rewrite <- H1, <- H2; ring).
  rewrite Rabs_mult, (Rabs_right h) by lra. field. lra.
Qed.

Lemma cosdefect_formula x1 y1 x2 y2 : 0 < x1 * x1 + y1 * y1 -> 0 < x2 * x2 + y2 * y2 ->
  Rabs (cos (rad (deg (atan2 y1 x1) - (deg (atan2 y2 x2) - 90)))) =
  Rabs (y2 * x1 - x2 * y1) / (hypot x1 y1 * hypot x2 y2).
Proof.
  intros Hh1 Hh2. apply hypot_pos_iff in Hh1, Hh2.
  destruct (atan2_polar_dec x1 y1) as [C1 S1]. destruct (atan2_polar_dec x2 y2) as [C2 S2].
  set (h1 := hypot x1 y1) in *. set (h2 := hypot x2 y2) in *. set (f1 := atan2 y1 x1) in *. set (f2 := atan2 y2 x2) in *.
  replace (rad (deg f1 - (deg f2 - 90))) with (PI / 2 - (f2 - f1)).
  2:{ pose proof PI_RGT_0. unfold rad, deg. field. lra. }
  rewrite cos_shift.
  (* (x2, y2) across the direction f1 of (x1, y1), times h1 *)
  destruct (atan2_rotate x2 y2 f1) as [_ E]. fold h2 f2 in E.
  replace (y2 * x1 - x2 * y1) with (h1 * h2 * sin (f2 - f1))
    by (rewrite (Rmult_assoc h1), E, <- C1, <- S1; ring).
  assert (Hh : 0 < h1 * h2) by (apply Rmult_lt_0_compat; assumption).
  rewrite Rabs_mult, (Rabs_right (h1 * h2)) by lra. field. split; lra.
Qed.

(* sky2pix_ellipse: recorded all_world2pix calls at (ra, dec) [exact], near (qr1, qd1) [major axis end] and
   (qr2, qd2) [minor axis end] *)
Lemma cert_sky2pix_ellipse (P S : pt -> pt) ra dec a b pa p0 p1 qr1 qd1 qr2 qd2 e lo1 hi1 lo2 hi2 SX tx SY ty TH ta :
  S (ra, dec) = (p0, p1) ->
  nearf S (qr1, qd1) e lo1 hi1 ->
  nearf S (qr2, qd2) e lo2 hi2 ->
  (Rabs (fst (translate ra dec a pa) - qr1) <= e /\ Rabs (snd (translate ra dec a pa) - qd1) <= e) ->
  (Rabs (fst (translate ra dec b (pa - 90)) - qr2) <= e /\ Rabs (snd (translate ra dec b (pa - 90)) - qd2) <= e) ->
  (forall u1 v1 u2 v2, fst lo1 <= u1 <= fst hi1 -> snd lo1 <= v1 <= snd hi1 ->
     fst lo2 <= u2 <= fst hi2 -> snd lo2 <= v2 <= snd hi2 ->
     let dxA := v1 - p1 in let dyA := u1 - p0 in let dxB := v2 - p1 in let dyB := u2 - p0 in
     0 < dxA * dxA + dyA * dyA /\ Rabs (hypot dxA dyA - SX) <= tx /\
     Rabs (Rabs (dyB * dxA - dxB * dyA) / hypot dxA dyA - SY) <= ty /\
     Rabs (dyA * cos (rad TH) - dxA * sin (rad TH)) - ta * hypot dxA dyA <= 0 /\
     0 <= dxA * cos (rad TH) + dyA * sin (rad TH)) ->
  let '(x, y, sx, sy, th) := sky2pix_ellipse (fits_pix2sky P) (fits_sky2pix S) (ra, dec) a b pa in
  x = p1 /\ y = p0 /\ Rabs (sx - SX) <= tx /\ Rabs (sy - SY) <= ty /\
  Rabs (sin (rad th - rad TH)) <= ta /\ 0 <= cos (rad th - rad TH).
Proof.
  intros H0 H1 H2 [Ha1 Ha2] [Hb1 Hb2] HC. rewrite sky2pix_ellipse_eq. cbv zeta. cbn [fst snd].
  rewrite !fits_sky2pix_eq, H0. cbn [fst snd].
  set (qa := translate ra dec a pa) in *. set (qb := translate ra dec b (pa - 90)) in *.
  destruct (H1 qa Ha1 Ha2) as [Hu1 Hv1]. destruct (H2 qb Hb1 Hb2) as [Hu2 Hv2].
  specialize (HC _ _ _ _ Hu1 Hv1 Hu2 Hv2). cbv zeta in HC. destruct HC as [Hp [Hx [Hy [Hc Hd]]]].
  split; [reflexivity|]. split; [reflexivity|]. split; [exact Hx|].
  rewrite perp_component, sy_formula by exact Hp. split; [exact Hy|].
  rewrite rad_deg. apply angle_close; try assumption; lra.
Qed.

Lemma prod_between g c M tm lo hi clo chi : 0 <= lo -> 0 <= clo -> lo <= g <= hi -> clo <= c <= chi ->
  M - tm <= lo * clo -> hi * chi <= M + tm -> M - tm <= g * c <= M + tm.
Proof. intros. split; nra. Qed.

(* pix2sky_ellipse: recorded all_pix2world calls at (y, x) [exact], near (cy1, cx1) and (cy2, cx2) *)
Lemma cert_pix2sky_ellipse (P S : pt -> pt) x y sx sy th ra0 dec0 cx1 cy1 cx2 cy2 e lo1 hi1 lo2 hi2
      glo ghi B ta g2lo g2hi clo chi M tm :
  P (y, x) = (ra0, dec0) ->
  nearf P (cy1, cx1) e lo1 hi1 ->
  nearf P (cy2, cx2) e lo2 hi2 ->
  Rabs (y + sx * sin (rad th) - cy1) <= e -> Rabs (x + sx * cos (rad th) - cx1) <= e ->
  Rabs (y + sy * sin (rad (th - 90)) - cy2) <= e -> Rabs (x + sy * cos (rad (th - 90)) - cx2) <= e ->
  0 <= glo <= 180 -> 0 <= ghi <= 180 -> 0 <= g2lo <= 180 -> 0 <= g2hi <= 180 -> 0 <= clo ->
  M - tm <= g2lo * clo -> g2hi * chi <= M + tm ->
  (forall u1 v1 u2 v2, fst lo1 <= u1 <= fst hi1 -> snd lo1 <= v1 <= snd hi1 ->
     fst lo2 <= u2 <= fst hi2 -> snd lo2 <= v2 <= snd hi2 ->
     sin (rad glo / 2) <= sqrt (hav ra0 dec0 u1 v1) <= sin (rad ghi / 2) /\
     sin (rad g2lo / 2) <= sqrt (hav ra0 dec0 u2 v2) <= sin (rad g2hi / 2) /\
     let y1 := bear_y ra0 dec0 u1 v1 in let x1 := bear_x ra0 dec0 u1 v1 in
     let y2 := bear_y ra0 dec0 u2 v2 in let x2 := bear_x ra0 dec0 u2 v2 in
     0 < x1 * x1 + y1 * y1 /\ 0 < x2 * x2 + y2 * y2 /\
     Rabs (y1 * cos (rad B) - x1 * sin (rad B)) - ta * hypot x1 y1 <= 0 /\
     0 <= x1 * cos (rad B) + y1 * sin (rad B) /\
     clo <= Rabs (y2 * x1 - x2 * y1) / (hypot x1 y1 * hypot x2 y2) <= chi) ->
  let '(ra, dec, major, minor, pa) := pix2sky_ellipse (fits_pix2sky P) (fits_sky2pix S) (x, y) sx sy th in
  ra = ra0 /\ dec = dec0 /\ glo <= major <= ghi /\ M - tm <= minor <= M + tm /\
  Rabs (sin (rad pa - rad B)) <= ta /\ 0 <= cos (rad pa - rad B).
Proof.
  intros H0 H1 H2 Hq1 Hq2 Hq3 Hq4 Hglo Hghi Hg2lo Hg2hi Hclo HM1 HM2 HC.
  rewrite pix2sky_ellipse_eq. cbv zeta. cbn [fst snd]. rewrite !fits_pix2sky_eq, H0. cbn [fst snd].
  set (q1 := (y + sx * sin (rad th), x + sx * cos (rad th))) in *.
  set (q2 := (y + sy * sin (rad (th - 90)), x + sy * cos (rad (th - 90)))) in *.
  destruct (H1 q1 Hq1 Hq2) as [Hu1 Hv1]. destruct (H2 q2 Hq3 Hq4) as [Hu2 Hv2].
  specialize (HC _ _ _ _ Hu1 Hv1 Hu2 Hv2). cbv zeta in HC.
  destruct HC as [Hg1 [Hg2 [Hp1 [Hp2 [Hc [Hd Hcc]]]]]].
  split; [reflexivity|]. split; [reflexivity|]. split; [apply gcd_between; assumption|].
  rewrite !bear_eq. rewrite cosdefect_formula by assumption.
  split; [apply (prod_between _ _ M tm g2lo g2hi clo chi); try assumption; [lra | apply gcd_between; assumption]|].
  rewrite rad_deg. apply angle_close; try assumption; lra.
Qed.
