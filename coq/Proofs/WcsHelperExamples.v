(* C16: a concrete invertible WCS (linear, 0.01 degree pixels, reference pixel (5, 5) at (10, 0)) and concrete inputs
   that satisfy every hypothesis of the C16 round-trip theorems (non-vacuity). *)
From Coq Require Import Reals ZArith Lra.
From Aegean Require Import Lib.RBase Gen.Sphere Lib.Sphere Gen.WcsHelper Model.WcsHelper Proofs.WcsHelperProofs.
Open Scope R_scope.

Definition exP (p : pt) : pt := (10 - (fst p - 5) / 100, (snd p - 5) / 100).
Definition exS (s : pt) : pt := (5 - (fst s - 10) * 100, 5 + snd s * 100).

Lemma exSP p : exS (exP p) = p.
Proof. destruct p as [a b]. unfold exS, exP; cbn [fst snd]. f_equal; field. Qed.
Lemma exPS s : same_sky (exP (exS s)) s.
Proof.
  replace (exP (exS s)) with s; [apply same_sky_refl|].
  destruct s as [a b]. unfold exS, exP; cbn [fst snd]. f_equal; field.
Qed.

(* vectors: every hypothesis of C16_vec_roundtrip at pos = (10, 0), r = 1, pa = 90 *)
Lemma example_vec :
  (forall s, True -> same_sky (exP (exS s)) s) /\
  let pos := (10, 0) in let r := 1 in let pa := 90 in
  -90 < snd pos < 90 /\ -90 < snd (translate (fst pos) (snd pos) r pa) < 90 /\ 0 < r < 180 /\ -180 < pa <= 180.
Proof.
  split; [intros s _; apply exPS|]. cbv zeta. cbn [fst snd]. rewrite translate_equator_east by lra. cbn [snd]. lra.
Qed.

(* ellipses: every hypothesis of C16_ellipse_roundtrip_partial at pos = (10, 0), a = 2, b = 1, pa = 0 *)
Lemma example_ellipse :
  let pos := (10, 0) in let a := 2 in let b := 1 in let pa := 0 in
  let qa := translate (fst pos) (snd pos) a pa in
  let qb := translate (fst pos) (snd pos) b (pa - 90) in
  let qc := translate (fst pos) (snd pos) b (pa + 90) in
  let X := m_sky2pix exS pos in let A := m_sky2pix exS qa in let B := m_sky2pix exS qb in
  -90 < snd pos < 90 /\ -90 < snd qa < 90 /\ 0 < a < 180 /\
  -90 < snd qb < 90 /\ -90 < snd qc < 90 /\ 0 < b < 180 /\ -180 < pa <= 180 /\
  (fst B - fst X) * (fst A - fst X) + (snd B - snd X) * (snd A - snd X) = 0 /\
  same_sky (m_pix2sky exP (2 * fst X - fst B, 2 * snd X - snd B)) qc.
Proof.
  cbv zeta. cbn [fst snd].
  replace (0 - 90) with (-90) by ring. replace (0 + 90) with 90 by ring.
  rewrite translate_equator_north, translate_equator_west, translate_equator_east by lra.
  change (m_sky2pix exS) with (fits_sky2pix exS). change (m_pix2sky exP) with (fits_pix2sky exP).
  rewrite !fits_sky2pix_eq. unfold exS; cbn [fst snd]. rewrite fits_pix2sky_eq. unfold exP; cbn [fst snd].
  do 8 (split; [lra|]).
  split; cbn [fst snd]; [lra | exists 0%Z; lra].
Qed.
