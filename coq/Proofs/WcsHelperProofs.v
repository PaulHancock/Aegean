(* C16: pixel <-> sky for points, vectors and ellipses over an abstract invertible WCS.  One characterising lemma per
   generated leaf of Gen/WcsHelper.v (the only lemmas here that look inside the generated text); gcd / bear depend on the point
   of the sphere only (RA modulo 360); the round trips sky -> pixel -> sky of a point, a vector and an ellipse; what the
   returned lengths and angles mean on the sphere (great-circle lengths, angles East of North). *)
From Coq Require Import Reals ZArith Lra Psatz.
From Aegean Require Import Lib.RBase Gen.Sphere Lib.Sphere Gen.WcsHelper Model.WcsHelper.
Open Scope R_scope.

Lemma sky2pix_vec_eq p2s s2p pos r pa :
  sky2pix_vec p2s s2p pos r pa =
  let X := s2p pos in let A := s2p (translate (fst pos) (snd pos) r pa) in
  (fst X, snd X, hypot (fst A - fst X) (snd A - snd X), deg (atan2 (snd A - snd X) (fst A - fst X))).
Proof. unfold sky2pix_vec; cbv zeta. rewrite ?hypot_sq, hypot_flip. reflexivity. Qed.

Lemma pix2sky_vec_eq p2s s2p pixel r theta :
  pix2sky_vec p2s s2p pixel r theta =
  let s1 := p2s pixel in
  let s2 := p2s (fst pixel + r * cos (rad theta), snd pixel + r * sin (rad theta)) in
  (fst s1, snd s1, gcd (fst s1) (snd s1) (fst s2) (snd s2), bear (fst s1) (snd s1) (fst s2) (snd s2)).
Proof. reflexivity. Qed.

Lemma sky2pix_ellipse_eq p2s s2p pos a b pa :
  sky2pix_ellipse p2s s2p pos a b pa =
  let X := s2p pos in
  let A := s2p (translate (fst pos) (snd pos) a pa) in
  let B := s2p (translate (fst pos) (snd pos) b (pa - 90)) in
  let th := atan2 (snd A - snd X) (fst A - fst X) in
  let th2 := atan2 (snd B - snd X) (fst B - fst X) - PI / 2 in
  (fst X, snd X, hypot (fst A - fst X) (snd A - snd X),
   hypot (fst B - fst X) (snd B - snd X) * Rabs (cos (th - th2)), deg th).
Proof. unfold sky2pix_ellipse; cbv zeta. rewrite !(hypot_flip (fst (s2p pos))). reflexivity. Qed.

Lemma pix2sky_ellipse_eq p2s s2p pixel sx sy theta :
  pix2sky_ellipse p2s s2p pixel sx sy theta =
  let s0 := p2s pixel in
  let s1 := p2s (fst pixel + sx * cos (rad theta), snd pixel + sx * sin (rad theta)) in
  let s2 := p2s (fst pixel + sy * cos (rad (theta - 90)), snd pixel + sy * sin (rad (theta - 90))) in
  let pa := bear (fst s0) (snd s0) (fst s1) (snd s1) in
  let pa2 := bear (fst s0) (snd s0) (fst s2) (snd s2) - 90 in
  (fst s0, snd s0, gcd (fst s0) (snd s0) (fst s1) (snd s1),
   gcd (fst s0) (snd s0) (fst s2) (snd s2) * Rabs (cos (rad (pa - pa2))), pa).
Proof. reflexivity. Qed.

Lemma sky2pix_ellipse_vec p2s s2p pos a b pa :
  let '(x, y, sx, sy, th) := sky2pix_ellipse p2s s2p pos a b pa in sky2pix_vec p2s s2p pos a pa = (x, y, sx, th).
Proof. rewrite sky2pix_ellipse_eq, sky2pix_vec_eq. reflexivity. Qed.
Lemma pix2sky_ellipse_vec p2s s2p pixel sx sy th :
  let '(ra, dec, a, b, pa) := pix2sky_ellipse p2s s2p pixel sx sy th in pix2sky_vec p2s s2p pixel sx th = (ra, dec, a, pa).
Proof. reflexivity. Qed.

Lemma fits_pix2sky_eq P x y : fits_pix2sky P (x, y) = P (y, x).
Proof.
  unfold fits_pix2sky, pix2sky_m, shift, swap; cbn [fst snd]. f_equal. f_equal; lra.
Qed.
Lemma fits_sky2pix_eq S pos : fits_sky2pix S pos = (snd (S pos), fst (S pos)).
Proof.
  unfold fits_sky2pix, sky2pix_m, unshift, swap; cbv zeta; cbn [fst snd]. f_equal; lra.
Qed.
Local Opaque sky2pix_vec pix2sky_vec sky2pix_ellipse pix2sky_ellipse.

Lemma same_sky_refl a : same_sky a a.
Proof. split; [reflexivity|]. exists 0%Z. ring. Qed.
Lemma same_sky_sym a b : same_sky a b -> same_sky b a.
Proof. intros [H [k Hk]]. split; [congruence|]. exists (- k)%Z. rewrite Hk, opp_IZR. ring. Qed.
Lemma same_sky_trans a b c : same_sky a b -> same_sky b c -> same_sky a c.
Proof.
  intros [H1 [k Hk]] [H2 [l Hl]]. split; [congruence|]. exists (k + l)%Z. rewrite Hk, Hl, plus_IZR. ring.
Qed.
Lemma same_sky_frame a b : same_sky a b ->
  uvec (fst a) (snd a) = uvec (fst b) (snd b) /\ north (fst a) (snd a) = north (fst b) (snd b) /\
  east (fst a) (snd a) = east (fst b) (snd b).
Proof. intros [Hd [k Hk]]. unfold uvec, north, east. rewrite Hd, Hk, cos_rad_period, sin_rad_period. auto. Qed.

Lemma gcd_same_sky a b a' b' : same_sky a a' -> same_sky b b' ->
  gcd (fst a) (snd a) (fst b) (snd b) = gcd (fst a') (snd a') (fst b') (snd b').
Proof.
  intros Ha Hb. destruct (same_sky_frame _ _ Ha) as [Ua _]. destruct (same_sky_frame _ _ Hb) as [Ub _].
  rewrite !gcd_angle, Ua, Ub. reflexivity.
Qed.
Lemma bear_same_sky a b a' b' : same_sky a a' -> same_sky b b' ->
  bear (fst a) (snd a) (fst b) (snd b) = bear (fst a') (snd a') (fst b') (snd b').
Proof.
  intros Ha Hb. destruct (same_sky_frame _ _ Ha) as [_ [Na Ea]]. destruct (same_sky_frame _ _ Hb) as [Ub _].
  rewrite !bear_eq.
  destruct (bear_frame (fst a) (snd a) (fst b) (snd b)) as [-> ->].
  destruct (bear_frame (fst a') (snd a') (fst b') (snd b')) as [-> ->].
  rewrite Na, Ea, Ub. reflexivity.
Qed.

(* the non-orthogonality correction: |w| * |cos (t - (angle w - PI/2))| is the component of w
   perpendicular to the direction t *)
Lemma perp_component wx wy t :
  hypot wx wy * Rabs (cos (t - (atan2 wy wx - PI / 2))) = Rabs (wy * cos t - wx * sin t).
Proof.
  replace (t - (atan2 wy wx - PI / 2)) with (PI / 2 - (atan2 wy wx - t)) by ring. rewrite cos_shift.
  rewrite <- (Rabs_right (hypot wx wy)) at 1 by (apply Rle_ge, hypot_nonneg).
  rewrite <- Rabs_mult, (proj2 (atan2_rotate wx wy t)). reflexivity.
Qed.

(* the pixel Q = X + sy (sin th, - cos th) that pix2sky_ellipse queries for the minor axis, when the pixel vector w = B - X of the
   mapped minor-axis end is orthogonal to the major axis X -> A of direction th and sy is its perpendicular component: w is
   k (- sin th, cos th) with sy = |k|, so Q is B itself (k < 0) or the reflection of B through X *)
Lemma minor_query (X A B : pt) sx sy th : 0 < sx ->
  (fst X + sx * cos (rad th), snd X + sx * sin (rad th)) = A ->
  sy = Rabs ((snd B - snd X) * cos (rad th) - (fst B - fst X) * sin (rad th)) ->
  (fst B - fst X) * (fst A - fst X) + (snd B - snd X) * (snd A - snd X) = 0 ->
  let Q := (fst X + sy * sin (rad th), snd X + sy * - cos (rad th)) in
  Q = B \/ Q = (2 * fst X - fst B, 2 * snd X - snd B).
Proof.
  intros Hsx <- -> Horth. cbn [fst snd] in Horth.
  pose proof (sin2_cos2 (rad th)) as Hu. unfold Rsqr in Hu.
  set (cu := cos (rad th)) in *. set (su := sin (rad th)) in *.
  set (wx := fst B - fst X) in *. set (wy := snd B - snd X) in *. set (k := wy * cu - wx * su).
  assert (Hdot : wx * cu + wy * su = 0) by (apply Rmult_eq_reg_l with sx; [rewrite Rmult_0_r, <- Horth; ring | lra]).
  assert (Hwx : wx = - k * su)
    by (transitivity (wx * (su * su + cu * cu) - cu * (wx * cu + wy * su)); [rewrite Hu, Hdot | unfold k]; ring).
  assert (Hwy : wy = k * cu)
    by (transitivity (wy * (su * su + cu * cu) - su * (wx * cu + wy * su)); [rewrite Hu, Hdot | unfold k]; ring).
  cbv zeta. destruct (Rlt_dec k 0) as [Hneg|Hpos]; [left; rewrite Rabs_left by exact Hneg | right; rewrite Rabs_right by lra];
    apply injective_projections; cbn [fst snd]; unfold wx, wy in *; lra.
Qed.

Section RoundTrip.
  Variables P S : pt -> pt.
  Variable Dp : pt -> Prop.   (* FITS pixel positions inside the image *)
  Variable Ds : pt -> Prop.   (* sky positions covered by the image *)
  Let p2s := fits_pix2sky P.
  Let s2p := fits_sky2pix S.

  (* point: (row, column) order with origin 1, and the inverse *)
  Lemma point_roundtrip :
    (forall p, Dp p -> S (P p) = p) ->
    forall x y, p2s (x, y) = P (y, x) /\ (Dp (y, x) -> s2p (p2s (x, y)) = (x, y)).
  Proof.
    intros SP x y. unfold p2s, s2p. rewrite fits_pix2sky_eq. split; [reflexivity|].
    intros HD. rewrite fits_sky2pix_eq, SP by exact HD. reflexivity.
  Qed.

  Hypothesis PS : forall s, Ds s -> same_sky (P (S s)) s.

  Lemma p2s_s2p s : Ds s -> same_sky (p2s (s2p s)) s.
  Proof.
    intros HD. unfold p2s, s2p. rewrite fits_sky2pix_eq, fits_pix2sky_eq, <- surjective_pairing. apply PS, HD.
  Qed.
  Lemma p2s_s2p' s : Ds s -> same_sky (p2s (fst (s2p s), snd (s2p s))) s.
  Proof. rewrite <- surjective_pairing. apply p2s_s2p. Qed.

  Lemma s2p_distinct s q : Ds s -> Ds q -> gcd (fst s) (snd s) (fst q) (snd q) <> 0 ->
    0 < hypot (fst (s2p q) - fst (s2p s)) (snd (s2p q) - snd (s2p s)).
  Proof.
    intros Hs Hq Hg. destruct (hypot_pos_cases (fst (s2p q) - fst (s2p s)) (snd (s2p q) - snd (s2p s))) as [H|[E1 E2]]; [exact H|].
    exfalso. apply Hg. assert (Heq : s2p q = s2p s) by (apply injective_projections; lra).
    rewrite <- (gcd_same_sky _ _ _ _ (p2s_s2p s Hs) (p2s_s2p q Hq)), Heq.
    apply gcd_zero_iff. reflexivity.
  Qed.

  Section Vec.
    Variables (pos : pt) (r pa : R).
    Let q := translate (fst pos) (snd pos) r pa.
    Hypothesis Hpos : Ds pos.
    Hypothesis Hq : Ds q.
    Hypothesis Hdec : -90 < snd pos < 90.
    Hypothesis Hdq : -90 < snd q < 90.
    Hypothesis Hr : 0 < r < 180.

    Lemma vec_gcd : gcd (fst pos) (snd pos) (fst q) (snd q) = r.
    Proof. apply translate_gcd; assumption. Qed.
    Lemma vec_distinct : 0 < hypot (fst (s2p q) - fst (s2p pos)) (snd (s2p q) - snd (s2p pos)).
    Proof. apply s2p_distinct; try assumption. rewrite vec_gcd. lra. Qed.

    Lemma vec_endpoint :
      let '(x, y, l, th) := sky2pix_vec p2s s2p pos r pa in
      (x, y) = s2p pos /\ (x + l * cos (rad th), y + l * sin (rad th)) = s2p q /\ 0 < l.
    Proof.
      rewrite sky2pix_vec_eq. cbv beta iota zeta. fold q. rewrite rad_deg.
      destruct (atan2_polar_dec (fst (s2p q) - fst (s2p pos)) (snd (s2p q) - snd (s2p pos))) as [-> ->].
      split; [symmetry; apply surjective_pairing|]. split; [|apply vec_distinct].
      apply injective_projections; cbn [fst snd]; ring.
    Qed.

    Lemma vec_roundtrip :
      let '(x, y, l, th) := sky2pix_vec p2s s2p pos r pa in
      let '(ra', dec', r', pa') := pix2sky_vec p2s s2p (x, y) l th in
      same_sky (ra', dec') pos /\ r' = r /\ (-180 < pa <= 180 -> pa' = pa).
    Proof.
      pose proof vec_endpoint as HE.
      destruct (sky2pix_vec p2s s2p pos r pa) as [[[x y] l] th]. destruct HE as [HX [HA _]].
      rewrite pix2sky_vec_eq. cbv zeta. cbn [fst snd]. rewrite HX, HA.
      pose proof (p2s_s2p pos Hpos) as H1. pose proof (p2s_s2p q Hq) as H2.
      split; [rewrite <- surjective_pairing; exact H1|].
      rewrite (gcd_same_sky _ _ _ _ H1 H2), (bear_same_sky _ _ _ _ H1 H2).
      split; [apply vec_gcd|]. intros Hpa. apply translate_bear; assumption.
    Qed.
  End Vec.

  Section Ellipse.
    Variables (pos : pt) (a b pa : R).
    Let qa := translate (fst pos) (snd pos) a pa.
    Let qb := translate (fst pos) (snd pos) b (pa - 90).
    Let qc := translate (fst pos) (snd pos) b (pa + 90).
    Let X := s2p pos.
    Let A := s2p qa.
    Let B := s2p qb.
    Hypothesis Hpos : Ds pos.
    Hypothesis Hqa : Ds qa.
    Hypothesis Hdec : -90 < snd pos < 90.
    Hypothesis Hdqa : -90 < snd qa < 90.
    Hypothesis Ha : 0 < a < 180.

    (* what sky2pix_ellipse returns, in terms of the three mapped points: the major axis is the vector (a, pa); the last
       clause is the non-orthogonality correction: sy is the component of B - X perpendicular to the major axis *)
    Lemma ellipse_pixel_facts :
      let '(x, y, sx, sy, th) := sky2pix_ellipse p2s s2p pos a b pa in
      (x, y) = X /\ (x + sx * cos (rad th), y + sx * sin (rad th)) = A /\ 0 < sx /\
      sy = Rabs ((snd B - snd X) * cos (rad th) - (fst B - fst X) * sin (rad th)).
    Proof.
      pose proof (vec_endpoint pos a pa Hpos Hqa Hdec Hdqa Ha) as HE.
      pose proof (sky2pix_ellipse_vec p2s s2p pos a b pa) as HV.
      rewrite sky2pix_ellipse_eq in *. cbv zeta in *. rewrite HV in HE. destruct HE as [HX [HA Hsx]].
      repeat split; try assumption. rewrite rad_deg. apply perp_component.
    Qed.

    Lemma ellipse_major_pa :
      let '(x, y, sx, sy, th) := sky2pix_ellipse p2s s2p pos a b pa in
      let '(ra', dec', a', b', pa') := pix2sky_ellipse p2s s2p (x, y) sx sy th in
      same_sky (ra', dec') pos /\ a' = a /\ (-180 < pa <= 180 -> pa' = pa).
    Proof.
      pose proof (vec_roundtrip pos a pa Hpos Hqa Hdec Hdqa Ha) as HR.
      pose proof (sky2pix_ellipse_vec p2s s2p pos a b pa) as HV.
      destruct (sky2pix_ellipse p2s s2p pos a b pa) as [[[[x y] sx] sy] th]. rewrite HV in HR.
      pose proof (pix2sky_ellipse_vec p2s s2p (x, y) sx sy th) as HW.
      destruct (pix2sky_ellipse p2s s2p (x, y) sx sy th) as [[[[ra' dec'] a'] b'] pa']. rewrite HW in HR. exact HR.
    Qed.

    (* minor axis: exact when, at this point,
       Horth: the images of the two (sky-perpendicular) axes are perpendicular in the pixel plane (conformality), and
       Hlin : reflecting the image of the minor-axis end through the centre pixel gives the image of the
              reflected sky point (odd local linearity; used when the pixel frame has the usual handedness) *)
    Hypothesis Hqb : Ds qb.
    Hypothesis Hdqb : -90 < snd qb < 90.
    Hypothesis Hdqc : -90 < snd qc < 90.
    Hypothesis Hb : 0 < b < 180.
    Hypothesis Hpa : -180 < pa <= 180.
    Hypothesis Horth : (fst B - fst X) * (fst A - fst X) + (snd B - snd X) * (snd A - snd X) = 0.
    Hypothesis Hlin : same_sky (p2s (2 * fst X - fst B, 2 * snd X - snd B)) qc.

    Lemma ellipse_roundtrip :
      let '(x, y, sx, sy, th) := sky2pix_ellipse p2s s2p pos a b pa in
      let '(ra', dec', a', b', pa') := pix2sky_ellipse p2s s2p (x, y) sx sy th in
      same_sky (ra', dec') pos /\ a' = a /\ b' = b /\ pa' = pa.
    Proof.
      pose proof ellipse_major_pa as HM. pose proof ellipse_pixel_facts as HF.
      destruct (sky2pix_ellipse p2s s2p pos a b pa) as [[[[x y] sx] sy] th].
      destruct HF as [HX [HA [Hsx Hsy]]].
      rewrite pix2sky_ellipse_eq in *. cbv zeta in *. cbn [fst snd] in *.
      destruct HM as [HS [HMa HMp]]. specialize (HMp Hpa).
      split; [exact HS|]. split; [exact HMa|]. split; [|exact HMp].
      rewrite HMp, cos_rad_m90, sin_rad_m90. clear HS HMa HMp.
      assert (Hx : x = fst X) by (rewrite <- HX; reflexivity). assert (Hy : y = snd X) by (rewrite <- HX; reflexivity). subst x y.
      pose proof (p2s_s2p' pos Hpos) as H1. fold X in H1.
      destruct (minor_query X A B sx sy th Hsx HA Hsy Horth) as [-> | ->].
      - pose proof (p2s_s2p qb Hqb) as H2. fold B in H2.
        rewrite (gcd_same_sky _ _ _ _ H1 H2), (bear_same_sky _ _ _ _ H1 H2). apply minor_perp; auto. exists (-1)%Z. lra.
      - rewrite (gcd_same_sky _ _ _ _ H1 Hlin), (bear_same_sky _ _ _ _ H1 Hlin). apply minor_perp; auto. exists 0%Z. lra.
    Qed.
  End Ellipse.
End RoundTrip.

(* lengths are great-circle lengths: what pix2sky_vec / pix2sky_ellipse return IS the angle between the unit
   vectors of the two mapped end points *)
Lemma lengths_great_circle p2s s2p pixel r theta :
  let s1 := p2s pixel in
  let s2 := p2s (fst pixel + r * cos (rad theta), snd pixel + r * sin (rad theta)) in
  let '(ra, dec, l, pa) := pix2sky_vec p2s s2p pixel r theta in
  (ra, dec) = s1 /\ l = gcd (fst s1) (snd s1) (fst s2) (snd s2) /\
  cos (rad l) = dot (uvec (fst s1) (snd s1)) (uvec (fst s2) (snd s2)) /\ 0 <= l <= 180 /\
  pa = bear (fst s1) (snd s1) (fst s2) (snd s2).
Proof.
  rewrite pix2sky_vec_eq. cbv zeta.
  split; [symmetry; apply surjective_pairing|]. split; [reflexivity|].
  split; [apply gcd_vector|]. split; [apply gcd_range | reflexivity].
Qed.
Lemma ellipse_lengths_great_circle p2s s2p pixel sx sy theta :
  let s0 := p2s pixel in
  let s1 := p2s (fst pixel + sx * cos (rad theta), snd pixel + sx * sin (rad theta)) in
  let s2 := p2s (fst pixel + sy * cos (rad (theta - 90)), snd pixel + sy * sin (rad (theta - 90))) in
  let '(ra, dec, major, minor, pa) := pix2sky_ellipse p2s s2p pixel sx sy theta in
  major = gcd (fst s0) (snd s0) (fst s1) (snd s1) /\
  cos (rad major) = dot (uvec (fst s0) (snd s0)) (uvec (fst s1) (snd s1)) /\
  pa = bear (fst s0) (snd s0) (fst s1) (snd s1) /\
  minor = gcd (fst s0) (snd s0) (fst s2) (snd s2) *
          Rabs (cos (rad (pa - (bear (fst s0) (snd s0) (fst s2) (snd s2) - 90)))) /\
  0 <= minor <= gcd (fst s0) (snd s0) (fst s2) (snd s2).
Proof.
  rewrite pix2sky_ellipse_eq. cbv zeta.
  split; [reflexivity|]. split; [apply gcd_vector|]. split; [reflexivity|]. split; [reflexivity|].
  set (s2 := p2s (fst pixel + sy * _, _)). set (c := cos _).
  pose proof (gcd_range (fst (p2s pixel)) (snd (p2s pixel)) (fst s2) (snd s2)) as [Hg _].
  pose proof (Rabs_pos c) as H0.
  assert (H1 : Rabs c <= 1) by (apply Rabs_le; unfold c; apply COS_bound).
  split; nra.
Qed.

Lemma pa_east_of_north ra dec d : 0 < d < 180 ->
  bear ra dec ra (dec + d) = 0 /\ bear ra dec ra (dec - d) = 180 /\
  (-90 < dec < 90 ->
   0 < bear ra dec (ra + d) dec < 180 /\ -180 < bear ra dec (ra - d) dec < 0 /\
   (dec = 0 -> bear ra dec (ra + d) dec = 90 /\ bear ra dec (ra - d) dec = -90)).
Proof.
  intros Hd. pose proof (sin_rad_pos d Hd) as Hsd.
  assert (Hm : forall e, bear ra dec ra e = deg (atan2 0 (sin (rad (e - dec))))).
  { intros e. rewrite bear_eq. unfold bear_y, bear_x. replace (ra - ra) with 0 by ring.
    rewrite rad_0, sin_0, cos_0, rad_sub, sin_minus. f_equal. f_equal; ring. }
  assert (He : bear_y ra dec (ra + d) dec = sin (rad d) * cos (rad dec)).
  { unfold bear_y. replace (ra + d - ra) with d by ring. reflexivity. }
  assert (Hw : bear_y ra dec (ra - d) dec = - sin (rad d) * cos (rad dec)).
  { unfold bear_y. replace (ra - d - ra) with (- d) by ring. rewrite rad_opp, sin_neg. ring. }
  split; [|split].
  - rewrite Hm. replace (dec + d - dec) with d by ring. rewrite atan2_0_l by lra. apply deg_0.
  - rewrite Hm. replace (dec - d - dec) with (- d) by ring. rewrite rad_opp, sin_neg, atan2_0_neg by lra. apply deg_PI.
  - intros Hdec. pose proof (cos_rad_pos dec Hdec) as Hc. rewrite !bear_eq, He, Hw. split; [|split].
    + destruct (atan2_pos_y (sin (rad d) * cos (rad dec)) (bear_x ra dec (ra + d) dec)) as [H1 H2]; [nra|].
      apply deg_lt in H1. apply deg_lt in H2. rewrite deg_0 in H1. rewrite deg_PI in H2. auto.
    + destruct (atan2_neg_y (- sin (rad d) * cos (rad dec)) (bear_x ra dec (ra - d) dec)) as [H1 H2]; [nra|].
      apply deg_lt in H1. apply deg_lt in H2. rewrite deg_opp, deg_PI in H1. rewrite deg_0 in H2. auto.
    + intros ->. unfold bear_x. rewrite rad_0, sin_0, cos_0, !Rmult_0_l, !Rmult_0_r, Rminus_0_r, !Rmult_1_r.
      rewrite atan2_pos_0, atan2_neg_0 by lra. rewrite deg_opp, <- rad_90, deg_rad. auto.
Qed.
