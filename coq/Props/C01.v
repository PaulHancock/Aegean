(* C01 - closed-loop recovery of an injected elliptical Gaussian.
   Statements; each proof is `exact <lemma>` or a few lines from the lemmas of Proofs/RecoveryProofs.v (conversion chain,
   canonical forms, bounds, recovery) and Proofs/GaussProofs.v (C04: derivatives).  The leaves (sky2pix_ellipse, pix2sky_ellipse, FWHM2CC/CC2FHWM, fix_shape, pa_limit,
   the arithmetic of result_to_components, the bounds of estimate_lmfit_parinfo, the Gaussian and its Jacobian) are regenerated
   from the sources into Gen/Recovery.v, Gen/Gauss.v, Gen/Sphere.v on every run.

   What is NOT proved: (1) the optimiser (lmfit / MINPACK) - it is the hypothesis `optimiser_finds_zero` of C01_recovery
   and is validated by the real closed loop on every run; (2) the WCS (astropy / wcslib): P = pix2sky, S = sky2pix are variables
   with the explicit hypotheses wcs_roundtrip_at / conformal_at / locally_conformal / uniform_scale, which a real projection
   satisfies only to second order in (source size / radius of curvature) - the harness measures the residue; (3) noise:
   "within 5 reported standard errors" is validated by execution only.

   FULL STATEMENT (property text) that is not a theorem of the current code:
     forall injected isolated source at least as large as the beam, the finder reports exactly the injected component.
   It fails on the recorded input class (known_findings.txt; Refuted/C01_amp_bound.v): a bright, coarsely sampled, off-centre source
   violates `amp (1 - 1.05 g) <= innerclip rms`, the upper bound of the amplitude then excludes the truth, and the reported peak is
   1.05 g x truth with flags = 0.  C01_truth_within_bounds_partial derives that condition; C01_recovery carries it (in_box).
   Two more recorded input classes, both faint (S/N 5 - 6) elongated sources: (a) the island-size cap of sx / sy
   (hypothesis `c_sx c <= (Rmax xsize ysize + 1) * sqrt 2 * FWHM2CC` of C01_truth_within_bounds_partial) excludes the true major axis when
   the island is shorter than the source (Refuted/C01_shape_cap.v); (b) an island at most 2 pixels across is not given the
   six-parameter fit at all (flag FIXED2PSF) - outside the model: C01_recovery is about summits that ARE fitted with all six parameters.
   "EXACTLY ONE COMPONENT" IS NOT A THEOREM HERE: C01_recovery is per summit, and the number of summits of an island is validated by
   execution only, for sources whose summit region (pixels of negative curvature above the outer clip) is one 4-connected region, i.e.
   whose sampled image has a single 3x3 local maximum.  Otherwise (second recorded finding, replayed by tools/harness/c01.py: an exact
   tie between two diagonal pixels, or the second lattice minimum of an oblique ridge of axis ratio >~ 3.5) the source is split into
   components of identical shape whose peak fluxes sum to the injected peak.
   C01_err_axes states what err_a / err_b of fitting.errors compute since their repair in /repo (before it: sigma instead of FWHM,
   x component only, and not exchanged when the optimiser returns sx < sy). *)
From Coq Require Import Reals List Arith Lra.
From Coquelicot Require Import Coquelicot.
From Interval Require Import Tactic.
From Aegean Require Import Lib.RBase Gen.Sphere Lib.Sphere Gen.Gauss Gen.Recovery Model.FitModel Model.Recovery
     Proofs.GaussProofs Proofs.RecoveryProofs Props.C04 Gen.SmallIsland Model.SmallIsland Proofs.SmallIslandProofs.
Import ListNotations.
Open Scope R_scope.

(* result_to_components undoes the injection.  For every source with a >= b > 0, -90 < pa <= 90, away from the poles, every island
   offset and every WCS that round-trips at the centre and at the end of the major axis:
   (1) if fix_shape does not swap (the minor axis obtained from the WCS does not exceed the injected major axis), position, peak
       flux, major axis and position angle are returned EXACTLY;
   (2) if moreover the WCS is conformal and point-symmetric at the source and has one linear scale there and at the reference pixel,
       the whole component (minor axis and integrated flux included) is the injected one. *)
Theorem C01_conversion_inverse : forall P S psf_a psf_b bmaj bmin s xmin ymin,
  regular_source s -> wcs_roundtrip_at P S s ->
  let k := to_component P psf_a psf_b (params_of (render S s) xmin ymin) xmin ymin in
  (minor_raw P S s * 3600 <= s_a s ->
     k_ra k = s_ra s /\ k_dec k = s_dec s /\ k_peak k = s_peak s /\ k_a k = s_a s /\ k_pa k = s_pa s) /\
  (conformal_at P S s -> uniform_scale S s psf_a psf_b bmaj bmin -> k = injected bmaj bmin s).
Proof.
  intros P S psf_a psf_b bmaj bmin s xmin ymin Hreg Hwcs. split.
  - intros Hle. rewrite (to_component_truth P S psf_a psf_b s xmin ymin Hreg Hwcs Hle). repeat split; reflexivity.
  - apply conversion_inverse_conformal; assumption.
Qed.

(* without conformality: the reported minor axis is the angular distance dq of the sky point found at the end of the fitted minor
   axis, shortened by |cos defect|; it never exceeds dq *)
Theorem C01_minor_bound_partial : forall P S psf_a psf_b s xmin ymin,
  regular_source s -> wcs_roundtrip_at P S s -> minor_raw P S s * 3600 <= s_a s ->
  let k := to_component P psf_a psf_b (params_of (render S s) xmin ymin) xmin ymin in
  let q := minor_sky_point P S s in
  let dq := gcd (s_ra s) (s_dec s) (fst q) (snd q) * 3600 in
  let defect := s_pa s - (bear (s_ra s) (s_dec s) (fst q) (snd q) - 90) in
  k_b k = dq * Rabs (cos (rad defect)) /\ k_b k <= dq /\ dq - k_b k = dq * (1 - Rabs (cos (rad defect))).
Proof. exact minor_bound. Qed.

(* the parameterisations an optimiser may equally return.  (a) theta + 360: the same component for EVERY WCS.  (b) theta + 180 and
   (sx, sy, theta) -> (sy, sx, theta +- 90): the same component when the WCS is conformal and point-symmetric on the four ends of
   the axes (locally_conformal) and a > b.  (c) at the level of the reported shape, fix_shape / pa_limit give a >= b, -90 < pa <= 90
   and identify the four parameterisations, whatever the WCS.
   Partial: for a real projection (b) holds to second order in the source size only; this is measured by the closed loop. *)
Theorem C01_canonical_partial :
  (forall P psf_a psf_b c xmin ymin,
     to_component P psf_a psf_b (mkComp (c_amp c) (c_xo c) (c_yo c) (c_sx c) (c_sy c) (c_theta c + 360)) xmin ymin =
     to_component P psf_a psf_b c xmin ymin) /\
  (forall P psf_a psf_b x y sxF syF theta ra dec a b pa xmin ymin amp r,
     locally_conformal P x y sxF syF theta ra dec a b pa -> b < a ->
     let c0 := mkComp amp (x - 1 - xmin) (y - 1 - ymin) (sxF * FWHM2CC) (syF * FWHM2CC) theta in
     same_gaussian c0 r -> to_component P psf_a psf_b r xmin ymin = to_component P psf_a psf_b c0 xmin ymin) /\
  (forall a b pa, -450 < pa <= 180 ->
     (let k := canon a b pa in snd (fst k) <= fst (fst k) /\ -90 < snd k <= 90) /\
     canon a b (pa + 180) = canon a b pa /\
     (b < a -> -360 < pa -> canon b a (pa - 90) = canon a b pa) /\
     (b < a -> pa <= 90 -> canon b a (pa + 90) = canon a b pa)).
Proof.
  split; [exact c01_theta_period|]. split.
  - intros P psf_a psf_b x y sxF syF theta ra dec a b pa xmin ymin amp r Hconf Hab.
    apply (same_gaussian_same_component P Hconf); assumption.
  - intros a b pa H. split; [apply canon_ordered; lra|]. split; [apply canon_half; lra|].
    split; intros Hab Hp; [apply canon_swap_down | apply canon_swap_up]; assumption || lra.
Qed.

(* for every list of injected sources, every island offset, every pixel list / mask and every weighting of the pixels (noise scaling,
   any row of any whitening matrix B) the residual handed to the optimiser vanishes at the true parameters *)
Theorem C01_truth_zero_residual : forall S srcs xmin ymin pix,
  lin_residual (island_pts S srcs xmin ymin pix) (model (map (fun s => params_of (render S s) xmin ymin) srcs)) = 0.
Proof. exact truth_zero_residual. Qed.

(* the optimiser is handed the true derivatives (C04), also after whitening *)
Theorem C01_jacobian_true : forall cs i c p x y, nth_error cs i = Some c -> regular c -> (p < 6)%nat ->
  is_derive (fun t => model (upd cs i (set_par c p t)) x y) (get_par c p) (deriv p c x y).
Proof. exact C04_multi. Qed.
Theorem C01_jacobian_whitened : forall pts (f : R -> R -> R -> R) (g : R -> R -> R) t0,
  (forall x y, is_derive (fun t => f t x y) t0 (g x y)) ->
  is_derive (fun t => lin_residual pts (f t)) t0 (lin_jacobian pts g).
Proof. exact C04_whitened. Qed.

(* the box handed to lmfit.  The fit starts inside it; for an isolated noise-free positive source whose peak pixel is at least as
   bright as a pixel within half a pixel of the centre, with axis ratio^2 <= (ba^2 + bb^2) / 2 (pixel beam FWHM), at least as large
   as the pixel beam's minor axis and not longer than the island-size cap, the box contains the truth EXACTLY WHEN
        amp * (1 - 1.05 g) <= innerclip * rms,      g = peak pixel / amp = sub-pixel attenuation
   (c105 = the binary64 literal 1.05).  Partial: the condition is necessary, and it fails for bright, coarsely sampled, off-centre
   sources (recorded finding). *)
Theorem C01_truth_within_bounds_partial :
  (forall u bpa, summit_sane u -> in_box u (start_of u bpa)) /\
  (forall u c kx ky,
     0 < c_amp c -> 0 < c_sy c <= c_sx c -> 0 <= u_rms u -> 0 <= u_oc u -> 0 <= u_bb u ->
     u_pk u = gauss_c c (u_px u) (u_py u) ->
     Rabs (kx - c_xo c) <= 1 / 2 -> Rabs (ky - c_yo c) <= 1 / 2 -> gauss_c c kx ky <= gauss_c c (u_px u) (u_py u) ->
     2 * c_sx c ^ 2 <= c_sy c ^ 2 * (u_ba u ^ 2 + u_bb u ^ 2) ->
     u_bb u * FWHM2CC <= c_sy c ->
     c_sx c <= (Rmax (u_xsize u) (u_ysize u) + 1) * sqrt 2 * FWHM2CC ->
     (in_box u c <-> c_amp c * (1 - c105 * atten c (u_px u) (u_py u)) <= u_ic u * u_rms u)) /\
  1.05 - 1 / 10 ^ 15 < c105 < 1.05 + 1 / 10 ^ 15.
Proof.
  split; [|split; [exact c01_truth_within_bounds | exact c105_val]].
  intros u bpa (H1 & H2 & H3 & H4 & H5). apply start_in_box; assumption.
Qed.

(* optimiser hypothesis + the above => the reported component is the injected one *)
Theorem C01_recovery : forall P S psf_a psf_b bmaj bmin minimize full_rank s xmin ymin rows u bpa,
  optimiser_finds_zero minimize full_rank ->
  summit_sane u ->
  in_box u (params_of (render S s) xmin ymin) ->
  full_rank (island_residual S s xmin ymin rows) (params_of (render S s) xmin ymin) ->
  (let e := pixel_ellipse S s in
   locally_conformal P (t5_1 e) (t5_2 e) (t5_3 e) (t5_4 e) (t5_5 e) (s_ra s) (s_dec s) (s_a s / 3600) (s_b s / 3600) (s_pa s)) ->
  s_b s < s_a s -> 0 <= s_ra s ->
  uniform_scale S s psf_a psf_b bmaj bmin ->
  to_component P psf_a psf_b (minimize (start_of u bpa) (in_box u) (island_residual S s xmin ymin rows)) xmin ymin
  = injected bmaj bmin s.
Proof.
  intros P S psf_a psf_b bmaj bmin minimize full_rank s xmin ymin rows u bpa Hopt Hu Hbox Hrank Hconf Hab Hra (scale & Hscale).
  exact (recovery P S psf_a psf_b bmaj bmin minimize full_rank Hopt s xmin ymin rows u bpa scale Hu Hbox Hrank Hconf Hab Hra Hscale).
Qed.

(* which islands are given the six-parameter fit that C01_recovery is about (leaves regenerated from estimate_lmfit_parinfo /
   _fit_island): every component of an island has its shape fitted exactly when the island has more than 6 finite pixels, is more
   than 2 pixels across and has 6 pixels per component; FIXED2PSF is set exactly for islands of at most 6 pixels or at most 2 pixels
   across (recorded finding: a faint source larger than the beam can have such an island); no flag at all is set exactly when every shape is fitted.
   An island 3 pixels across IS fitted: a tree that fixes it to the psf generates another si_tiny_dim and these lemmas fail. *)
Theorem C01_six_parameter_fit : forall npix mindim ncomp : Z, (0 < ncomp)%Z ->
  (shape_fitted npix mindim ncomp = true <-> (6 < npix /\ 2 < mindim /\ 6 * ncomp <= npix)%Z).
Proof. exact shape_fitted_iff. Qed.
Theorem C01_fixed2psf_iff : forall npix mindim ncomp : Z,
  si_has (fit_flags npix mindim ncomp) si_FIXED2PSF = false <-> (6 < npix /\ 2 < mindim)%Z.
Proof. exact fixed2psf_iff. Qed.
Theorem C01_unflagged_iff : forall npix mindim ncomp : Z, (0 < ncomp)%Z ->
  (fit_flags npix mindim ncomp = 0%N <-> (6 < npix /\ 2 < mindim /\ 6 * ncomp <= npix)%Z).
Proof. exact unflagged_iff. Qed.

(* the reported uncertainties of the axes are the propagated ones, in sky units: err_a (err_b) is the great-circle distance, in
   arcseconds, between the sky images of the end of the FWHM major (minor) axis and of the same end when the fitted standard
   deviation is one standard error larger *)
Theorem C01_err_axes : forall P xo yo sx sy err_sx err_sy theta,
  reported_err_a P xo yo sx sy err_sx theta =
    (let r := P (major_end xo yo (sx * CC2FHWM) theta) in let o := P (major_end xo yo ((sx + err_sx) * CC2FHWM) theta) in
     gcd (fst r) (snd r) (fst o) (snd o)) * 3600 /\
  reported_err_b P xo yo sx sy err_sy theta =
    (let r := P (major_end xo yo (sy * CC2FHWM) (theta + 90)) in let o := P (major_end xo yo ((sy + err_sy) * CC2FHWM) (theta + 90)) in
     gcd (fst r) (snd r) (fst o) (snd o)) * 3600.
Proof. intros P xo yo sx sy err_sx err_sy theta. split; [apply c01_err_a | apply c01_err_b]. Qed.

(* ... and the pair stored as (err_a, err_b) follows the shape: err_a is the propagated error of the larger of the two fitted
   standard deviations (the axis that fix_shape made the major axis), whichever of sx, sy the optimiser made the larger one *)
Theorem C01_err_axes_follow_shape : forall P xo yo sx sy err_sx err_sy theta,
  reported_err_axes P xo yo sx sy err_sx err_sy theta =
  if Rlt_dec sx sy then (axis_err P xo yo sy err_sy (theta + 90), axis_err P xo yo sx err_sx theta)
  else (axis_err P xo yo sx err_sx theta, axis_err P xo yo sy err_sy (theta + 90)).
Proof. exact c01_err_axes_shape. Qed.

(* non-vacuity: a source on the equator, 36 x 18 arcsec, pa = 0 *)
Example C01_example_source : regular_source (mkSource 10 0 1 36 18 0).
Proof.
  unfold regular_source. cbn [s_ra s_dec s_peak s_a s_b s_pa].
  rewrite translate_equator_north by lra. cbn [snd]. lra.
Qed.
(* a WCS with a global inverse round-trips everywhere *)
Example C01_example_roundtrip : forall s,
  wcs_roundtrip_at (fun p => (- snd p / 360 + 10, fst p / 360)) (fun q => (360 * snd q, - 360 * (fst q - 10))) s.
Proof.
  intros s. unfold wcs_roundtrip_at. cbn [fst snd]. split.
  - f_equal; field.
  - rewrite (surjective_pairing (translate (s_ra s) (s_dec s) (s_a s / 3600) (s_pa s))) at 3. f_equal; field.
Qed.
(* the canonical shape of a swapped, out-of-range parameterisation *)
Example C01_example_canon : canon 2 3 100 = (3, 2, 10).
Proof. unfold canon. rewrite fix_shape_swap by lra. cbn [fst snd]. rewrite pa_limit_up by lra. f_equal. lra. Qed.
(* a centred, well sampled source satisfies the amplitude condition (g = 1) *)
Example C01_example_amp_condition : forall amp rms, 0 < amp -> 0 <= rms -> amp * (1 - c105 * 1) <= 5 * rms.
Proof. intros amp rms Ha Hr. pose proof c105_val. nra. Qed.
(* a summit that satisfies summit_sane, and its start *)
Example C01_example_start : in_box (mkSummit 1 10 10 (1/100) 5 4 3 3 9 9) (start_of (mkSummit 1 10 10 (1/100) 5 4 3 3 9 9) 0).
Proof. apply start_in_box; cbn; lra. Qed.

(* the two recorded thin islands: 10 x 3 pixels is fitted, 2 x 7 pixels is fixed to the psf *)
Example C01_example_islands : shape_fitted 28 3 1 = true /\ shape_fitted 14 2 1 = false /\ fit_flags 14 2 1 = 4%N.
Proof. vm_compute. auto. Qed.

Print Assumptions C01_conversion_inverse.
Print Assumptions C01_minor_bound_partial.
Print Assumptions C01_canonical_partial.
Print Assumptions C01_truth_zero_residual.
Print Assumptions C01_jacobian_true.
Print Assumptions C01_jacobian_whitened.
Print Assumptions C01_truth_within_bounds_partial.
Print Assumptions C01_recovery.
Print Assumptions C01_six_parameter_fit.
Print Assumptions C01_fixed2psf_iff.
Print Assumptions C01_err_axes.
Print Assumptions C01_err_axes_follow_shape.
