(* C02 - Islands are exactly the seeded, flood-thresholded 8-connected pixel groups.
   Statements; each proof is `exact <lemma>` or a few lines from the lemmas of Proofs/IslandProofs.v and Proofs/IslandBoxProofs.v;
   leaves regenerated into Gen/Islands.v and Gen/IslandBox.v. *)
From Coq Require Import ZArith Bool List Relations.
From Aegean Require Import Gen.Islands Gen.IslandBox Lib.Graph Model.IslandModel Model.IslandBox Proofs.IslandProofs
  Proofs.IslandBoxProofs.
Import ListNotations.
Open Scope Z_scope.

(* two flood-passing pixels are linked when a chain of 8-neighbour steps through
   flood-passing pixels joins them *)
Definition linked (img : image) (fl : clip) : pix -> pix -> Prop :=
  connected pix adj (nodes img fl).

(* a pixel passes the flood test iff it is inside the image, finite, and |im-bkg|/rms >= flood *)
Theorem C02_flood_rule : forall img fl p, rms_pos img -> clip_ok fl ->
  (flood_ok img fl p = true <->
   exists px i b r, get img p = Some px /\ p_im px = Some i /\ p_bkg px = Some b /\ p_rms px = Some r /\
                    c_num fl * r <= Z.abs (i - b) * c_den fl).
Proof. exact (fun img fl p _ _ => flood_ok_iff img fl p). Qed.

Theorem C02_seed_rule : forall img sd p, rms_pos img -> clip_ok sd ->
  (seed_ok img sd p = true <->
   exists px i b r, get img p = Some px /\ p_im px = Some i /\ p_bkg px = Some b /\ p_rms px = Some r /\
                    c_num sd * r < Z.abs (i - b) * c_den sd).
Proof. exact (fun img sd p _ _ => seed_ok_iff img sd p). Qed.

(* soundness: every reported island is a whole linkage class of flood-passing pixels and
   contains one of ITS OWN pixels above the seed threshold *)
Theorem C02_islands_sound : forall img fl sd I, In I (islands img fl sd) ->
  I <> [] /\ NoDup I /\
  (forall p, In p I -> flood_ok img fl p = true) /\
  (forall p q, In p I -> (In q I <-> linked img fl p q)) /\
  (exists s, In s I /\ seed_ok img sd s = true).
Proof. exact islands_sound. Qed.

(* completeness: every flood-passing pixel linked to a seed pixel is in a reported island *)
Theorem C02_islands_complete : forall img fl sd p s,
  flood_ok img fl p = true -> linked img fl p s -> seed_ok img sd s = true -> flood_ok img fl s = true ->
  exists I, In I (islands img fl sd) /\ In p I /\ In s I.
Proof.
  intros img fl sd p s Hp Hps Hs _. apply flood_ok_in_nodes in Hp.
  destruct (components_complete pix pix_eqb pix_eqb_spec adj _ (nodes_NoDup img fl) adj_sym p s Hp Hps) as (C & HC & HpC & HsC).
  exists C. split; [|split; assumption]. apply islands_In. split; [exact HC|]. exists s. auto.
Qed.

(* islands are pairwise disjoint *)
Theorem C02_disjoint : forall img fl sd i j I J,
  nth_error (islands img fl sd) i = Some I -> nth_error (islands img fl sd) j = Some J -> i <> j ->
  forall p, In p I -> ~ In p J.
Proof.
  intros img fl sd i j I J Hi Hj Hij.
  exact (pairwise_nth_error disjoint (islands img fl sd) (@disjoint_sym pix)
           (islands_pairwise img fl sd) i j I J Hi Hj Hij).
Qed.

(* the box is the tight box of the island's own pixels *)
Theorem C02_bbox_tight : forall (I : list pix) r0 r1 c0 c1, I <> [] -> bbox I = (r0, r1, c0, c1) ->
  (forall p, In p I -> r0 <= fst p < r1 /\ c0 <= snd p < c1) /\
  (exists p, In p I /\ fst p = r0) /\ (exists p, In p I /\ fst p = r1 - 1) /\
  (exists p, In p I /\ snd p = c0) /\ (exists p, In p I /\ snd p = c1 - 1).
Proof. exact bbox_tight. Qed.

(* the box an island REPORTS is computed by PixelIsland.calc_bounding_box (body regenerated into Gen/IslandBox.v) from the
   island's own pixels inside the find_objects cut-out and the cut-out's start; it is that same tight box, for every
   island of every image - and for any cut-out start whatever, because the offsets cancel *)
Theorem C02_reported_box_is_tight : forall (I : list pix) r0 r1 c0 c1, I <> [] -> reported_box I = (r0, r1, c0, c1) ->
  (forall p, In p I -> r0 <= fst p < r1 /\ c0 <= snd p < c1) /\
  (exists p, In p I /\ fst p = r0) /\ (exists p, In p I /\ fst p = r1 - 1) /\
  (exists p, In p I /\ snd p = c0) /\ (exists p, In p I /\ snd p = c1 - 1).
Proof.
  intros I r0 r1 c0 c1 Hne H. rewrite (reported_box_is_bbox I Hne) in H. exact (bbox_tight I r0 r1 c0 c1 Hne H). Qed.
Theorem C02_calc_bounding_box_any_cutout : forall (I : list pix) r0 c0, I <> [] ->
  calc_bounding_box (rel_pixels I r0 c0) r0 c0 = bbox I.
Proof. exact calc_box_any_cutout. Qed.
Theorem C02_every_island_reports_its_box : forall img fl sd I, In I (islands img fl sd) -> reported_box I = bbox I.
Proof. exact island_reports_tight_box. Qed.

(* inside the box the mask leaves exactly the island's own pixels unblanked *)
Theorem C02_mask_exact : forall img fl sd I p, rms_pos img -> clip_ok fl -> In I (islands img fl sd) ->
  (In p (unmasked img fl I) <-> In p I).
Proof. intros img fl sd I p _ _. apply mask_exact. Qed.

(* blank (NaN) pixels never belong to an island *)
Theorem C02_no_blank : forall img fl sd I p, In I (islands img fl sd) -> In p I ->
  exists px i b r, get img p = Some px /\ p_im px = Some i /\ p_bkg px = Some b /\ p_rms px = Some r.
Proof. exact no_blank. Qed.

(* raising the seed threshold can only remove islands *)
Theorem C02_seed_monotone : forall img fl sd sd' I, rms_pos img -> clip_ok sd -> clip_ok sd' -> clip_le sd sd' ->
  In I (islands img fl sd') -> In I (islands img fl sd).
Proof.
  intros img fl sd sd' I Hrms Hsd Hsd' Hle H. apply islands_In in H as (HG & s & Hs & Hseed).
  apply islands_In. split; [exact HG|]. exists s. split; [exact Hs|].
  exact (seed_ok_mono img sd sd' s Hrms Hsd Hsd' Hle Hseed).
Qed.

(* negating image and background gives the same islands (used by C13) *)
Theorem C02_sign_symmetric : forall img fl sd, islands (neg_image img) fl sd = islands img fl sd.
Proof. exact sign_symmetric. Qed.

(* non-vacuity: a concrete image on which every premise above is satisfiable.
   4 x 5, bkg = 0, rms = 1, flood 3, seed 5:
     island A = {(0,0)=10, (1,1)=3}   touching only diagonally, seed pixel (0,0)
     group  B = {(0,4)=4, (1,4)=4}    passes the flood test but has no seed pixel: dropped
     island C = {(3,1)=-7, (3,2)=-6}  negative
     (0,2) is NaN: it is an 8-neighbour of (1,1) but belongs to no island *)
Definition ex_px (i : Z) : pixel := mkPixel (Some i) (Some 0) (Some 1).
Definition ex_nan : pixel := mkPixel None (Some 0) (Some 1).
Definition ex_img : image :=
  [[ex_px 10; ex_px 0;    ex_nan;     ex_px 1; ex_px 4];
   [ex_px 0;  ex_px 3;    ex_px 0;    ex_px 0; ex_px 4];
   [ex_px 0;  ex_px 0;    ex_px 0;    ex_px 0; ex_px 0];
   [ex_px 2;  ex_px (-7); ex_px (-6); ex_px 0; ex_px 0]].
Definition ex_fl : clip := mkClip 3 1.
Definition ex_sd : clip := mkClip 5 1.
Definition ex_A : list pix := [(1, 1); (0, 0)].
Definition ex_B : list pix := [(1, 4); (0, 4)].
Definition ex_C : list pix := [(3, 2); (3, 1)].

Example ex_rms_pos : rms_pos ex_img.
Proof. apply rms_pos_check. vm_compute. reflexivity. Qed.
Example ex_clip_ok : clip_ok ex_fl /\ clip_ok ex_sd /\ clip_ok (mkClip 13 2) /\ clip_le ex_sd (mkClip 13 2).
Proof. vm_compute. repeat split; discriminate. Qed.

Example ex_groups : components pix pix_eqb adj (nodes ex_img ex_fl) = [ex_A; ex_B; ex_C].
Proof. vm_compute. reflexivity. Qed.
Example ex_islands : islands ex_img ex_fl ex_sd = [ex_A; ex_C].
Proof. vm_compute. reflexivity. Qed.
Example ex_islands_higher_seed : islands ex_img ex_fl (mkClip 13 2) = [ex_A; ex_C].
Proof. vm_compute. reflexivity. Qed.
Example ex_obs : obs ex_img ex_fl ex_sd =
  [((0, 2, 0, 2), ex_A, [(0, 0); (1, 1)]); ((3, 4, 1, 3), ex_C, [(3, 1); (3, 2)])].
Proof. vm_compute. reflexivity. Qed.
Example ex_reported_boxes : map reported_box (islands ex_img ex_fl ex_sd) = [(0, 2, 0, 2); (3, 4, 1, 3)].
Proof. vm_compute. reflexivity. Qed.
(* a non-square island in a cut-out that starts elsewhere: rows 5..6, columns 2..5 *)
Example ex_calc_box : calc_bounding_box (rel_pixels [(5, 2); (6, 5); (5, 3)] 4 1) 4 1 = (5, 7, 2, 6).
Proof. vm_compute. reflexivity. Qed.
Example ex_nan_pixel : get ex_img (0, 2) = Some ex_nan /\ flood_ok ex_img ex_fl (0, 2) = false /\
                       adj (0, 2) (1, 1) = true.
Proof. vm_compute. auto. Qed.
Example ex_B_fails_seed : existsb (flood_ok ex_img ex_fl) ex_B = true /\
                          existsb (seed_ok ex_img ex_sd) ex_B = false.
Proof. vm_compute. auto. Qed.

Example ex_A_in : In ex_A (islands ex_img ex_fl ex_sd).
Proof. rewrite ex_islands. left. reflexivity. Qed.

(* the theorems applied: the diagonal touch links (0,0) and (1,1); B's pixels are linked to no seed *)
Example ex_diagonal_linked : linked ex_img ex_fl (0, 0) (1, 1).
Proof.
  destruct (C02_islands_sound ex_img ex_fl ex_sd ex_A ex_A_in) as (_ & _ & _ & Hl & _).
  apply (Hl (0, 0) (1, 1)); vm_compute; auto.
Qed.
Example ex_complete_premises :
  flood_ok ex_img ex_fl (1, 1) = true /\ linked ex_img ex_fl (1, 1) (0, 0) /\
  seed_ok ex_img ex_sd (0, 0) = true /\ flood_ok ex_img ex_fl (0, 0) = true.
Proof.
  split; [reflexivity|split; [|split; reflexivity]].
  destruct (C02_islands_sound ex_img ex_fl ex_sd ex_A ex_A_in) as (_ & _ & _ & Hl & _).
  apply (Hl (1, 1) (0, 0)); vm_compute; auto.
Qed.
Example ex_B_in_no_island : forall I, In I (islands ex_img ex_fl ex_sd) -> ~ In (0, 4) I /\ ~ In (1, 4) I.
Proof.
  rewrite ex_islands. intros I [<-|[<-|[]]]; split; intros H; cbn [In ex_A ex_C] in H;
    repeat (destruct H as [H|H]; [discriminate H|]); exact H.
Qed.
Example ex_disjoint_premises :
  nth_error (islands ex_img ex_fl ex_sd) 0 = Some ex_A /\ nth_error (islands ex_img ex_fl ex_sd) 1 = Some ex_C.
Proof. rewrite ex_islands. split; reflexivity. Qed.
Example ex_monotone_premise : In ex_A (islands ex_img ex_fl (mkClip 13 2)).
Proof. rewrite ex_islands_higher_seed. left. reflexivity. Qed.
Example ex_sign : islands (neg_image ex_img) ex_fl ex_sd = [ex_A; ex_C].
Proof. vm_compute. reflexivity. Qed.

Print Assumptions C02_flood_rule.
Print Assumptions C02_seed_rule.
Print Assumptions C02_islands_sound.
Print Assumptions C02_islands_complete.
Print Assumptions C02_disjoint.
Print Assumptions C02_bbox_tight.
Print Assumptions C02_reported_box_is_tight.
Print Assumptions C02_calc_bounding_box_any_cutout.
Print Assumptions C02_every_island_reports_its_box.
Print Assumptions C02_mask_exact.
Print Assumptions C02_no_blank.
Print Assumptions C02_seed_monotone.
Print Assumptions C02_sign_symmetric.
