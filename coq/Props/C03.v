(* C03 - every output catalogue is internally consistent and reproducible.

   Proved here (Aegean's own logic, on the executable model Model/CatalogRows.v whose leaves are regenerated
   from /repo on every run): numbering (blind and priorized, any number of island groups), contiguity of the
   component numbers, a >= b and -90 < pa <= 90 after fix_shape + pa_limit with explicit termination,
   0 <= ra < 360 after the wrap, flags confined to the seven documented bits, the decision table of
   fitting.errors (repaired: full input domain), the int_flux formula, the sexagesimal field arithmetic, and the meaning of the executable
   row / catalogue predicates that every real catalogue is pushed through.

   NOT proved (validated on the real finder by tools/harness/c03.py on every run): blind and priorized
   fitting complete on every valid image, the optimiser leaves finite positive values, the 1 % int_flux
   agreement where the pixel->sky map is not a similarity, strings vs decimals for binary64 inputs,
   island rows vs detected pixels, and run-to-run identity.  The full property text is therefore covered
   as: theorems below + row_ok / cat_ok / islands_ok (vm_compute) on every row of every catalogue. *)
From Coq Require Import ZArith NArith QArith Reals Bool List Lia.
From Aegean Require Import Lib.FVal Gen.CatRows Gen.CatRowsFlux Model.CatalogRows Model.CatalogFluxModel
  Proofs.CatRowsProofs Proofs.CatRowsFluxProofs.
From Aegean Require Gen.Sexagesimal Proofs.SexagesimalProofs.
Import ListNotations.
Open Scope Z_scope.

(* blind: islands that are fitted are numbered 1, 2, 3, ... in order *)
Theorem C03_blind_ids_consecutive : forall nonempty, blind_ids nonempty = zseq 1 (count_true nonempty).
Proof. exact blind_ids_spec. Qed.
Theorem C03_blind_ids_unique : forall isl, NoDup (blind_rows isl).
Proof. exact blind_rows_unique. Qed.
(* priorized: (batch g, position k) |-> istart g + k is injective for k < group_size, at the generated
   istart and group_size.  (The pre-fix leaf istart = g collides: Refuted/C03_istart.v) *)
Theorem C03_priorized_ids_unique : forall g g' k k', 0 <= k < group_size -> 0 <= k' < group_size ->
  istart g group_size + k = istart g' group_size + k' -> g = g' /\ k = k'.
Proof. intros g g' k k' Hk Hk'. apply istart_injective; auto. pose proof group_size_pos. lia. Qed.
(* the whole batching loop: n island groups get the numbers 0 .. n-1, for every n *)
Theorem C03_priorized_ids_consecutive : forall (groups : list (option Z)), priorized_ids groups = zseq 0 (length groups).
Proof. exact (@priorized_ids_spec (option Z)). Qed.
Theorem C03_priorized_rows_unique : forall groups, NoDup (priorized_rows groups).
Proof. exact priorized_rows_unique. Qed.

(* skipped summits leave no holes, and `components` is the number of accepted summits; the same for the refit of
   priorized fitting, whose counter is a leaf of its own *)
Theorem C03_components_contiguous : forall accepted,
  snd (summit_ids accepted) = Z.of_nat (count_true accepted) /\
  fst (summit_ids accepted) = component_numbers (snd (summit_ids accepted)).
Proof. exact components_contiguous. Qed.
Theorem C03_refit_components_contiguous : forall usable,
  snd (refit_ids usable) = Z.of_nat (count_true usable) /\
  fst (refit_ids usable) = component_numbers (snd (refit_ids usable)).
Proof. intros usable. rewrite refit_ids_eq. apply components_contiguous. Qed.
Theorem C03_blind_rows_contiguous : forall isl i j,
  In (i, j) (blind_rows isl) -> 0 <= j /\ (0 < j -> In (i, j - 1) (blind_rows isl)).
Proof. intros isl. exact (rows_of_contiguous _). Qed.
Theorem C03_priorized_rows_contiguous : forall groups i j,
  In (i, j) (priorized_rows groups) -> 0 <= j /\ (0 < j -> In (i, j - 1) (priorized_rows groups)).
Proof. intros groups. exact (rows_of_contiguous _). Qed.
(* unique + contiguous is the same as: an island with n rows carries exactly the numbers 0 .. n-1 *)
Theorem C03_numbered_from_zero : forall ps i, NoDup ps -> contiguous ps ->
  forall j, In (i, j) ps <-> 0 <= j < count_island ps i.
Proof. exact numbered_from_zero. Qed.

(* for every finite a, b, pa: after fix_shape a' >= b' (and b' > 0 when both were), and pa_limit terminates
   within pa_fuel iterations per loop with the representative of pa modulo 180 in (-90, 90] *)
Theorem C03_shape_range : forall a b pa ea eb,
  exists a' b' pa' ea' eb',
    fix_shape (mkShape (Fin a) (Fin b) (Fin pa) ea eb) = mkShape (Fin a') (Fin b') (Fin pa') ea' eb' /\
    (b' <= a')%Q /\ ((0 < a)%Q -> (0 < b)%Q -> (0 < b')%Q) /\
    forall n, (pa_fuel pa' <= n)%nat ->
      exists r, normalise n (mkShape (Fin a) (Fin b) (Fin pa) ea eb) = Some (mkShape (Fin a') (Fin b') (Fin r) ea' eb') /\
                (-(90) < r)%Q /\ (r <= 90)%Q /\ (r == pa_closed pa')%Q.
Proof.
  intros a b pa ea eb. destruct (fix_shape_fin a b pa ea eb) as [a' [b' [pa' [ea' [eb' [E [Hab Hc]]]]]]].
  exists a', b', pa', ea', eb'. split; [exact E|]. split; [exact Hab|]. split.
  - intros Ha Hb. destruct Hc as [[_ [_ [-> _]]]|[_ [_ [-> _]]]]; assumption.
  - intros n Hn. unfold normalise. rewrite E. cbn [s_a s_b s_pa s_ea s_eb].
    destruct (pa_limit_fin pa' n Hn) as [r [-> Hr]]. exists r. split; [reflexivity|exact Hr].
Qed.
(* termination is not unconditional: with no fuel an out-of-range angle is not reduced, and for +-inf the
   loop condition never becomes false (NaN falls through both loops) *)
Theorem C03_pa_limit_needs_fuel : forall q, (q <= -(90))%Q \/ (90 < q)%Q -> pa_limit_fuel 0 (Fin q) = None.
Proof. exact pa_limit_no_fuel. Qed.
Theorem C03_pa_limit_nonfinite : forall n,
  pa_limit_fuel n PInf = None /\ pa_limit_fuel n NInf = None /\ pa_limit_fuel n NaN = Some NaN.
Proof. exact pa_limit_inf. Qed.
Theorem C03_ra_range : forall q, (-(360) <= q)%Q -> (q < 360)%Q ->
  exists r, ra_wrap (Fin q) = Fin r /\ (0 <= r)%Q /\ (r < 360)%Q /\ (r == q \/ r == q + 360)%Q.
Proof. exact ra_wrap_range. Qed.

Theorem C03_flags_seven_bits : forall (input : N -> Prop), (forall x, input x -> (x < 128)%N) ->
  forall f, reach input f ->
    flags_ok f = true /\ N.land f flag_mask = f /\ forall k, (7 <= k)%N -> N.testbit f k = false.
Proof. exact flags_seven_bits. Qed.
Theorem C03_flag_constants : length flag_constants = 7%nat /\ NoDup flag_constants /\
  Forall (fun c => exists k, (k < 7)%N /\ c = N.shiftl 1 k) flag_constants.
Proof.
  split; [reflexivity|]. split.
  - repeat constructor; simpl; intuition discriminate.
  - repeat constructor;
      [exists 0%N|exists 1%N|exists 2%N|exists 3%N|exists 4%N|exists 5%N|exists 6%N]; split; reflexivity.
Qed.
Theorem C03_blind_flags_reachable : forall npix mindim ncomp, reach (fun _ => False) (blind_flags npix mindim ncomp).
Proof. exact blind_flags_reach. Qed.

(* the decision table of fitting.errors with its masking steps (stderr None read as nan; err_peak_flux, err_ra,
   err_dec, err_pa, err_a, err_b masked unless positive and finite before the relative errors are combined;
   err_int_flux masked unless positive and finite), FULL input domain: each stderr positive, zero, negative, nan,
   +-inf or None; each propagated sky value any float (a huge pixel stderr gives nan); peak, a, b floats other
   than 0; int_flux any float.  The call returns and every err_* is positive-finite or exactly -1.
   (Refuted/C03_errors.v keeps the pre-repair table, for which this fails.) *)
Theorem C03_errors_masked : forall i pv,
  is_nonzero_float (ei_peak i) = true -> is_nonzero_float (ei_a i) = true -> is_nonzero_float (ei_b i) = true ->
  is_float (ei_int i) = true ->
  is_float (pp_ra pv) = true -> is_float (pp_dec pv) = true -> is_float (pp_pa pv) = true ->
  is_float (pp_a pv) = true -> is_float (pp_b pv) = true ->
  exists o, errors_model2 i pv = Some o /\ err_out_ok o = true.
Proof.
  intros i pv. unfold errors_model2, current_cfg. rewrite stderr_none_is_nan_char, six_guarded_char, int_flux_guarded_char.
  apply errors2_table_ok.
Qed.
Theorem C03_errors_masked_not_fitted : forall i pv,
  has (ei_flags i) (N.lor NOTFIT FITERR) = true \/ ei_ref_finite i = false ->
  exists w, errors_model2 i pv = Some (all_masked w).
Proof. intros i pv. destruct current_guards_char as [<- _]. apply errors_model2_with_early. Qed.
(* a singular covariance matrix leaves nan (not -2) in the stderr of every varying parameter *)
Theorem C03_singular_covariance_is_nan : singular_fallback_is_nan = true.
Proof. reflexivity. Qed.
(* priorized fitting: an uncertainty that the chosen stage does not fit is copied from the input catalogue; whatever the
   catalogue holds there (nan when it has no err_* columns, 0, negative, inf) the row gets a positive finite value or -1,
   and a known value (positive, or -1) is passed on as it is.  (Refuted/C03_error_copies.v: the plain copy) *)
Theorem C03_copied_errors_masked : forall c, err_cls_ok (copied_error c) = true.
Proof. intro c. unfold copied_error. rewrite copied_errors_guarded_char. destruct c; reflexivity. Qed.
Theorem C03_copied_errors_kept : forall c, err_cls_ok c = true -> c <> PyNone -> copied_error c = c.
Proof. intros c H Hn. unfold copied_error. rewrite copied_errors_guarded_char. destruct c; try reflexivity; try discriminate H; congruence. Qed.

(* what the code computes: peak * (sx CC2FHWM) * (sy CC2FHWM) / (beam_a beam_b) in pixels = peak 8 ln2 sx sy / (..);
   equal to peak a b / (psf_a psf_b) wherever the pixel -> sky map is a similarity (the 1 % of the property
   covers the deviation from that, validated on every row) *)
Theorem C03_intflux_pixels : forall peak sx sy pa pb, pa <> 0%R -> pb <> 0%R ->
  int_flux peak sx sy pa pb = (peak * ellipse_axis sx * ellipse_axis sy / (pa * pb))%R.
Proof. exact int_flux_pixels. Qed.
Theorem C03_intflux_partial : forall s peak sx sy pa pb, s <> 0%R -> pa <> 0%R -> pb <> 0%R ->
  int_flux peak sx sy pa pb =
  (peak * sky_arcsec s (ellipse_axis sx) * sky_arcsec s (ellipse_axis sy) / (sky_arcsec s pa * sky_arcsec s pb))%R.
Proof. exact int_flux_sky. Qed.

(* the divmod chain is the one of angle_tools (dms_fields_eq_split, hms_fields_eq_split), whose field lemma serves here too *)
Theorem C03_strings_dms : forall cs, 0 <= cs ->
  let '(d, m, s, c) := dms_fields cs in
  fields_value (d, m, s, c) = cs /\ 0 <= d /\ 0 <= m < 60 /\ 0 <= s < 60 /\ 0 <= c < 100.
Proof.
  intros cs H. rewrite SexagesimalProofs.dms_fields_eq_split.
  destruct (SexagesimalProofs.c17_fields_in_range cs) as (Hf & Hd & _). specialize (Hd H).
  destruct (Gen.Sexagesimal.dms_split cs) as [[[d m] s] c]. unfold fields_value. lia.
Qed.
Theorem C03_strings_hms : forall cs, 0 <= cs ->
  let '(h, m, s, c) := hms_fields cs in
  fields_value (h, m, s, c) = cs mod (24 * 360000) /\ 0 <= h < 24 /\ 0 <= m < 60 /\ 0 <= s < 60 /\ 0 <= c < 100.
Proof.
  intros cs H. rewrite SexagesimalProofs.hms_fields_eq_split. change (24 * 360000) with 8640000.
  destruct (SexagesimalProofs.c17_fields_in_range cs) as (_ & _ & Hf).
  destruct (Gen.Sexagesimal.hms_split cs) as [[[h m] s] c]. unfold fields_value. lia.
Qed.

(* what the executable predicates, which every real catalogue is pushed through, decide *)
Theorem C03_row_ok_iff : forall r, row_ok r = true <-> row_spec r.
Proof. exact row_ok_iff. Qed.
Theorem C03_cat_ok_iff : forall c, cat_ok c = true <-> cat_spec c.
Proof. exact cat_ok_iff. Qed.
Theorem C03_irow_ok_iff : forall ps ir d, irow_ok ps ir d = true <-> irow_spec ps ir d.
Proof. exact irow_ok_iff. Qed.

(* 45 island groups (three batches of 20, 20, 5) with one skipped group: 44 distinct island numbers *)
Example ex_priorized_45 :
  map fst (priorized_islands_with istart group_size (Some 2 :: None :: repeat (Some 1) 43)) = 0 :: zseq 2 43.
Proof. vm_compute. reflexivity. Qed.
Example ex_blind : blind_rows [(true, [true; false; true]); (false, []); (true, [false]); (true, [true])]
  = [(1, 0); (1, 1); (3, 0)].
Proof. vm_compute. reflexivity. Qed.
Example ex_shape : normalise 3 (mkShape (FZ 30) (FZ 45) (FZ 100) (FZ 1) (FZ 2)) =
  Some (mkShape (FZ 45) (FZ 30) (Fin (100 + 90 - 180)) (FZ 2) (FZ 1)).
Proof. vm_compute. reflexivity. Qed.
Example ex_pa_boundary : pa_limit_fuel 2 (FZ (-90)) = Some (Fin (-90 + 180)) /\ pa_limit_fuel 2 (FZ 90) = Some (FZ 90).
Proof. vm_compute. auto. Qed.
Example ex_tiny_flags : blind_flags 1 1 1 = 21%N /\ blind_flags 3 2 1 = 5%N /\ blind_flags 5 3 1 = 4%N /\ blind_flags 40 6 2 = 0%N.
Proof. vm_compute. auto. Qed.
Example ex_errors_stage1 :
  errors_model2 (mkErrIn 64 true false false false false false Pos PyNone PyNone PyNone PyNone PyNone Pos Pos Pos Pos)
                (mkErrProp Pos Pos Pos Pos Pos)
  = Some (mkErrOut Pos MinusOne MinusOne MinusOne MinusOne MinusOne Pos false).
Proof. vm_compute. reflexivity. Qed.
(* the two defects found on real images, on the repaired table: stderr = nan after a singular covariance; a huge
   pixel stderr whose offset position has no sky coordinate *)
Example ex_errors_singular :
  errors_model2 (mkErrIn 64 true true true true true true CNan CNan CNan CNan CNan CNan Pos Pos Pos Pos)
                (mkErrProp Pos Pos Pos Pos Pos) = Some (all_masked false).
Proof. vm_compute. reflexivity. Qed.
Example ex_errors_huge_stderr :
  errors_model2 (mkErrIn 5 true true true false false false Pos Pos Pos PyNone PyNone PyNone Pos Pos Pos Pos)
                (mkErrProp CNan CNan Pos Pos Pos)
  = Some (mkErrOut Pos MinusOne MinusOne MinusOne MinusOne MinusOne Pos false).
Proof. vm_compute. reflexivity. Qed.
Example ex_errors_negative_amp_stderr :
  errors_model2 (mkErrIn 0 true true true true true true NegOther Zero Zero PyNone Pos CPInf NegOther Pos CNan Zero)
                (mkErrProp Zero Zero Pos Pos Pos) = Some (all_masked false).
Proof. vm_compute. reflexivity. Qed.
Example ex_row : row_ok (mkRow 1 0 7 0 (Fin (1499980755 # 10000000)) (Fin (-299991667 # 10000000))
    (Fin (706446 # 10000)) (Fin (470964 # 10000)) (Fin (-299990 # 10000)) (FZ 1) (Fin (36968 # 10000))
    (FZ 30) (FZ 30) [Fin (1 # 100000); Fin (1 # 100000); Fin (1 # 100); Fin (1 # 100); Fin (1 # 10); Fin (-1 # 1); Fin (2 # 1)]
    (Some (mkSexa false 9 59 59 54)) (Some (mkSexa true 29 59 57 0))) = true.
Proof. vm_compute. reflexivity. Qed.
Example ex_row_bad_pa : row_failures (mkRow 1 0 7 128 (FZ 360) (FZ 0) (FZ 2) (FZ 3) (FZ (-90)) (FZ 1) (FZ 1)
    (FZ 1) (FZ 1) [Fin 0; NaN] None None) = [1; 2; 3; 5; 6; 7; 8; 9].
Proof. vm_compute. reflexivity. Qed.
Example ex_cat_dup : cat_ok [] = true /\ nodupb pair_eqb [(1, 0); (2, 0); (1, 0)] = false /\
  contiguousb [(1, 0); (1, 2)] = false /\ contiguousb [(1, 1); (1, 0); (4, 0)] = true.
Proof. vm_compute. auto. Qed.

Print Assumptions C03_blind_ids_unique.
Print Assumptions C03_priorized_ids_unique.
Print Assumptions C03_priorized_rows_unique.
Print Assumptions C03_components_contiguous.
Print Assumptions C03_numbered_from_zero.
Print Assumptions C03_shape_range.
Print Assumptions C03_flags_seven_bits.
Print Assumptions C03_errors_masked.
Print Assumptions C03_copied_errors_masked.
Print Assumptions C03_intflux_partial.
Print Assumptions C03_row_ok_iff.
Print Assumptions C03_cat_ok_iff.
