(* C03 (extension) - the ORDER of the rows of a catalogue.

   C03: "Re-running on identical input yields an identical catalogue apart from uuids" and "(island, source) pairs ... are
   unique".  Priorized fitting fits its island groups in batches and returns sorted(sources); island_itergen walks
   sorted(catalog).  Python's sorted() asks only __lt__; for components that is the generated comparison
   Gen.CatOrder.comp_lt on (island, source) (models.ComponentSource.__lt__, re-translated on every run).
   Statements only; proofs in Proofs/CatOrderProofs.v. *)
From Coq Require Import ZArith Bool List Sorting.Permutation Sorting.Sorted.
From Aegean Require Import Gen.CatOrder Model.CatOrder Proofs.CatOrderProofs.
Import ListNotations.
Open Scope Z_scope.

(* __lt__ on components is the strict lexicographic order on (island, source): irreflexive, transitive, total *)
Theorem C03x_component_order_is_lexicographic : forall i1 s1 i2 s2,
  comp_lt i1 s1 i2 s2 = true <-> (i1 < i2 \/ (i1 = i2 /\ s1 < s2)).
Proof. exact comp_lt_spec. Qed.
Theorem C03x_component_order_strict_total : (forall a, klt a a = false) /\
  (forall a b c, klt a b = true -> klt b c = true -> klt a c = true) /\
  (forall a b, klt a b = true \/ a = b \/ klt b a = true).
Proof. exact klt_strict_total. Qed.

(* sorted() of rows with unique (island, source) pairs is a permutation of the rows in strictly ascending order ... *)
Theorem C03x_sorted_is_ascending_permutation : forall l, NoDup l ->
  Permutation l (py_sorted l) /\ StronglySorted (fun a b => klt a b = true) (py_sorted l).
Proof. exact sorted_ascending_perm. Qed.
(* ... and it is THE ascending permutation: any list with these two properties is that list (so the result does not depend on
   the sorting algorithm, as long as it only asks __lt__) *)
Theorem C03x_sorted_is_the_ascending_permutation : forall l s, NoDup l -> Permutation l s ->
  StronglySorted (fun a b => klt a b = true) s -> s = py_sorted l.
Proof. exact ascending_perm_unique. Qed.

(* the catalogue returned by priorized fitting does not depend on the order in which the island groups / batches delivered
   their rows: same rows in any order, same catalogue *)
Theorem C03x_priorized_output_order_independent : forall rows rows', NoDup rows -> Permutation rows rows' ->
  priorized_output rows = priorized_output rows'.
Proof.
  intros rows rows' Hn Hp. unfold priorized_output. rewrite priorized_output_sorted_char.
  exact (sorted_order_independent rows rows' Hn Hp).
Qed.
Theorem C03x_priorized_output_ascending : forall rows, NoDup rows ->
  Permutation rows (priorized_output rows) /\ StronglySorted (fun a b => klt a b = true) (priorized_output rows).
Proof. intros rows Hn. unfold priorized_output. rewrite priorized_output_sorted_char. exact (sorted_ascending_perm rows Hn). Qed.

(* island rows are ordered by island number; island_itergen walks the sorted catalogue from its smallest element *)
Theorem C03x_island_order : forall i1 i2, island_lt i1 i2 = (i1 <? i2).
Proof. reflexivity. Qed.
Theorem C03x_itergen_ascending : itergen_ascending = true.
Proof. reflexivity. Qed.

(* non-vacuity: rows delivered batch by batch (islands 20..22, then 0..1), one island with three components *)
Example ex_rows_nodup : NoDup [(21, 0); (20, 1); (20, 0); (22, 0); (1, 0); (0, 2); (0, 0); (0, 1)].
Proof. repeat (constructor; [cbn [In]; intros H; repeat (destruct H as [H|H]; [discriminate H|]); exact H|]). constructor. Qed.
Example ex_sorted : py_sorted [(21, 0); (20, 1); (20, 0); (22, 0); (1, 0); (0, 2); (0, 0); (0, 1)]
  = [(0, 0); (0, 1); (0, 2); (1, 0); (20, 0); (20, 1); (21, 0); (22, 0)].
Proof. vm_compute. reflexivity. Qed.
Example ex_other_delivery_order : priorized_output [(0, 0); (22, 0); (0, 1); (20, 0); (1, 0); (20, 1); (0, 2); (21, 0)]
  = priorized_output [(21, 0); (20, 1); (20, 0); (22, 0); (1, 0); (0, 2); (0, 0); (0, 1)].
Proof. vm_compute. reflexivity. Qed.

Print Assumptions C03x_component_order_is_lexicographic.
Print Assumptions C03x_component_order_strict_total.
Print Assumptions C03x_sorted_is_ascending_permutation.
Print Assumptions C03x_sorted_is_the_ascending_permutation.
Print Assumptions C03x_priorized_output_order_independent.
Print Assumptions C03x_priorized_output_ascending.
