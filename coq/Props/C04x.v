(* C04 (extension) - the noise / covariance model behind "the inverse Fisher matrix built from those derivatives and the
   noise/covariance model": fitting.Cmatrix, fitting.Bmatrix, the whitening of fitting.lmfit_jacobian and the Fisher matrices of
   fitting.covar_errors.  Statements; each proof is `exact <lemma>` or a few lines from the lemmas of Proofs/NoiseProofs.v; the leaves cm_entry,
   bm_minL, bm_clip, bm_s, lj_scale, ce_sigma and the shape constants are regenerated from fitting.py into Gen/Noise.v on every run.

   scipy.linalg.eigh and scipy.linalg.inv are NOT modelled: their contracts appear as hypotheses (C = Q diag(L) Q^T, Q^T Q = I,
   Q Q^T = I, L ascending; C Cinv = I, Cinv C = I) and are validated against the real library on every run by tools/harness/c04x.py.
   meq r c A B : A and B agree on the first r rows and c columns;  mmul n : matrix product with inner dimension n. *)
From Coq Require Import Reals List Arith Lra.
From Aegean Require Import Lib.RBase Gen.Gauss Gen.Noise Model.NoiseModel Proofs.NoiseProofs.
Import ListNotations.
Open Scope R_scope.

(* Cmatrix is a correlation matrix: symmetric, unit diagonal, entries in (0, 1] - for every pixel list (masked islands
   included: pts is any list), every theta, and sx, sy non-zero *)
Theorem C04x_cmatrix_symmetric : forall pts sx sy theta i j, cmatrix pts sx sy theta i j = cmatrix pts sx sy theta j i.
Proof. exact cmatrix_symmetric. Qed.
Theorem C04x_cmatrix_unit_diagonal : forall pts sx sy theta i, cmatrix pts sx sy theta i i = 1.
Proof. exact cmatrix_unit_diagonal. Qed.
Theorem C04x_cmatrix_entries_in_unit_interval : forall pts sx sy theta i j, sx <> 0 -> sy <> 0 ->
  0 < cmatrix pts sx sy theta i j <= 1.
Proof. exact cmatrix_unit_interval. Qed.

(* Bmatrix.  The clip replaces every eigenvalue below minL = 1e-9 * L[-1] by minL ... *)
Theorem C04x_bmatrix_clip : forall n L k, clipped n L k = Rmax (L k) (bm_minL (L (pred n))).
Proof. exact clipped_char. Qed.
Theorem C04x_bmatrix_minL_documented : forall l, bm_minL l = bm_eps * l.
Proof. exact bm_minL_documented. Qed.
(* ... so that in general B B^T is Q diag(1 / clipped L) Q^T, the inverse of the matrix with the CLIPPED spectrum (not of C) *)
Theorem C04x_bmatrix_clipped_spectrum : forall n Q L, 0 < L (pred n) -> forall i j,
  mmul n (bmatrix n L Q) (mT (bmatrix n L Q)) i j = mmul n (mmul n Q (mdiag (fun k => / clipped n L k))) (mT Q) i j.
Proof. exact bbt_spectrum. Qed.
Theorem C04x_bmatrix_clipped_inverse : forall n Q L,
  meq n n (mmul n (mT Q) Q) mI -> meq n n (mmul n Q (mT Q)) mI -> 0 < L (pred n) ->
  meq n n (mmul n (mmul n (bmatrix n L Q) (mT (bmatrix n L Q))) (mmul n (mmul n Q (mdiag (clipped n L))) (mT Q))) mI.
Proof. exact bmatrix_clipped_inverse. Qed.
(* the documented contract "B.dot(B') = inv(C)": under the eigh contract, when the smallest eigenvalue is not below minL *)
Theorem C04x_bmatrix_contract : forall n C Q L,
  meq n n C (mmul n (mmul n Q (mdiag L)) (mT Q)) -> meq n n (mmul n (mT Q) Q) mI -> meq n n (mmul n Q (mT Q)) mI ->
  (forall i j, (i <= j < n)%nat -> L i <= L j) ->
  0 < L (pred n) -> bm_minL (L (pred n)) <= L 0%nat ->
  meq n n (mmul n (mmul n (bmatrix n L Q) (mT (bmatrix n L Q))) C) mI.
Proof. exact bmatrix_contract. Qed.

(* covar_errors.  The matrix whose inverse's diagonal gives the errors (branch C is None: np.transpose(J).dot(J) with
   J = lmfit_jacobian(.., B=B, errs=errs) = ((jacobian / errs).dot(B))^T, i.e. B multiplies the PIXEL index of the row
   Jacobian from the right) is  (J/e) C^-1 (J/e)^T  for ANY B with B B^T C = I - it does not depend on the square root used *)
Theorem C04x_fisher_is_JCinvJ : forall n J e C Cinv, meq n n (mmul n C Cinv) mI ->
  forall B, meq n n (mmul n (mmul n B (mT B)) C) mI ->
  forall i j, fisher_B n J e B i j = fisher_ref n J e Cinv i j.
Proof. exact fisher_is_JCinvJ. Qed.
(* the branch that is given C (np.transpose(J).dot(inv(C)).dot(J)) builds that matrix directly, so the two branches agree *)
Theorem C04x_fisher_C_branch : forall n J e B Cinv i j, fisher_C n J e B Cinv i j = fisher_ref n J e Cinv i j.
Proof. exact fisher_C_ref. Qed.
Theorem C04x_branches_agree : forall n J e C Cinv, meq n n (mmul n C Cinv) mI ->
  forall B, meq n n (mmul n (mmul n B (mT B)) C) mI ->
  forall i j, fisher_B n J e B i j = fisher_C n J e B Cinv i j.
Proof. exact branches_agree. Qed.
(* it is J Sigma^-1 J^T for the covariance Sigma[a][b] = errs[a] * C[a][b] * errs[b] of the pixel noise *)
Theorem C04x_precision_is_inverse_covariance : forall n e C Cinv, meq n n (mmul n Cinv C) mI ->
  (forall a, (a < n)%nat -> e a <> 0) -> meq n n (mmul n (precision Cinv e) (covariance C e)) mI.
Proof. exact precision_is_inverse. Qed.
Theorem C04x_fisher_is_J_precision_J : forall n J e Cinv, (forall a, (a < n)%nat -> e a <> 0) -> forall i j,
  fisher_ref n J e Cinv i j = bsum n (fun a => bsum n (fun b => J i a * precision Cinv e a b * J j b)).
Proof. exact fisher_ref_precision. Qed.
(* each error is the square root of the diagonal entry of the inverse *)
Theorem C04x_onesigma : forall Finv k, onesigma Finv k = sqrt (Finv k k).
Proof. intros Finv k. exact (ce_sigma_char (Finv k k)). Qed.
(* the residual handed to the optimiser is whitened on the same side as the Jacobian and un-whitened on that side *)
Theorem C04x_residual_side : res_whiten_right = lj_whiten_right /\ res_unwhiten_right = res_whiten_right.
Proof. split; reflexivity. Qed.

(* the side matters: a (non-symmetric) B with B B^T C = I for which multiplying on the other side, B.dot(J'), gives another
   matrix than J C^-1 J^T (1 instead of 2), while the code's side gives it.  Also the non-vacuity example of the hypotheses. *)
Theorem C04x_wrong_side_differs :
  meq 2 2 (mmul 2 (mmul 2 ws_B (mT ws_B)) ws_C) mI /\ meq 2 2 (mmul 2 ws_C ws_Cinv) mI /\
  fisher_B 2 ws_J (fun _ => 1) ws_B 0%nat 0%nat = fisher_ref 2 ws_J (fun _ => 1) ws_Cinv 0%nat 0%nat /\
  fisher_left 2 ws_J (fun _ => 1) ws_B 0%nat 0%nat <> fisher_ref 2 ws_J (fun _ => 1) ws_Cinv 0%nat 0%nat.
Proof. exact wrong_side_differs. Qed.

(* non-vacuity: a two-pixel island *)
Example C04x_example_cmatrix : cmatrix [(3, 4); (3, 5)] 1 1 0 0%nat 1%nat = exp (IZR (-1) / 2).
Proof.
  unfold cmatrix; cbn [nth fst snd]. rewrite cm_entry_char. f_equal. unfold rad.
  replace (0 * PI / 180) with 0 by (unfold Rdiv; ring). rewrite cos_0, sin_0. field.
Qed.

Print Assumptions C04x_cmatrix_symmetric.
Print Assumptions C04x_cmatrix_entries_in_unit_interval.
Print Assumptions C04x_bmatrix_clipped_inverse.
Print Assumptions C04x_bmatrix_contract.
Print Assumptions C04x_fisher_is_JCinvJ.
Print Assumptions C04x_branches_agree.
Print Assumptions C04x_precision_is_inverse_covariance.
Print Assumptions C04x_wrong_side_differs.
