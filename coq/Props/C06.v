(* C06 - BANE background/noise maps obey the estimator contract.
   Statements, each proved in a line from the lemmas of the proof files; the model is Model/BaneFilter.v (generic over the
   scalar type: run at Q against the real code, proved at R), the statistics are Lib/Stats.v, the proofs are in
   Proofs/StatsProofs.v (clipping over R), Proofs/StatsQR.v (the Q version computes the R version) and
   Proofs/BaneFilterProofs.v.  All index
   arithmetic and the comparison structure of sigmaclip are regenerated from BANE.py (Gen/BaneFilter.v, Gen/BaneSync.v).

   bane_bkg g img / bane_rms g img : the two maps for the configuration g (image size, grid steps, box sizes, rows per
   stripe, masking) with the sigma clipping of the real code over the reals (mean; standard deviation = sqrt of the
   population variance).  A pixel is `option R`, None = not finite.  real_geom g says that g subtracts the background
   from the rows the generated flag says (the_geom .. builds such a g); wf g is the quantifier of the property: steps >= 1,
   boxes >= 4, at least one row per stripe.  Every theorem below is first proved for ARBITRARY box statistics satisfying
   shift / scale / range hypotheses (Section Abstract of the proofs) and instantiated here.

   Known restriction, found by this work (see Refuted/C06_thin.v and the harness): for an image with a single row or a
   single column every box slice is empty, both maps are NaN everywhere; hence 2 <= rows, cols in C06_constant,
   C06_mask_far_finite and C06_no_blank_in_no_blank_out. *)
From Coq Require Import ZArith QArith Reals List Bool.
From Aegean Require Import Gen.BaneSync Gen.BaneFilter Lib.Stats Model.BaneFilter Proofs.StatsProofs Proofs.BaneFilterProofs.
Import ListNotations.
Open Scope R_scope.

(* the maps have the shape of the image (for every statistic) *)
Theorem C06_shape : forall g (t : list (list (option Q))) est_b est_r,
  let o := run QC est_b est_r g (of_table t) in
  (length (fst o) = Z.to_nat (nr g) /\ Forall (fun row => length row = Z.to_nat (nc g)) (fst o))
  /\ (length (snd o) = Z.to_nat (nr g) /\ Forall (fun row => length row = Z.to_nat (nc g)) (snd o)).
Proof. intros g t est_b est_r. apply run_shape. Qed.

(* a constant image gives background = the constant and noise = 0 at every pixel *)
Theorem C06_constant : forall g img k y c, real_geom g -> wf g -> (2 <= nr g)%Z -> (2 <= nc g)%Z -> in_image g y c ->
  (forall y' c', in_image g y' c' -> img y' c' = Some k) ->
  bane_bkg g img y c = Some k /\ bane_rms g img y c = Some 0.
Proof. intros g img k y c Hg Hwf. apply constant_abstract; auto using est_mean_range, est_std_range, real_suball. Qed.

(* adding k to the image adds k to the background and leaves the noise unchanged: every pixel, every configuration
   (any number of stripes), blank pixels allowed *)
Theorem C06_shift : forall g img k y c, real_geom g ->
  bane_bkg g (shift_img img k) y c = omap RC (fun x => x + k) (bane_bkg g img y c)
  /\ bane_rms g (shift_img img k) y c = bane_rms g img y c.
Proof. intros g img k y c Hg. apply shift_abstract; auto using est_mean_shift, real_suball. Qed.

(* multiplying by any real k (also 0 and negative) scales the background by k and the noise by |k| *)
Theorem C06_scale : forall g img k y c,
  bane_bkg g (scale_img img k) y c = omap RC (fun x => k * x) (bane_bkg g img y c)
  /\ bane_rms g (scale_img img k) y c = omap RC (fun x => Rabs k * x) (bane_rms g img y c).
Proof. intros g img k y c. apply scale_abstract; auto using est_mean_scale, est_std_scale. Qed.

(* lo <= finite pixels <= hi  ==>  lo <= background <= hi  and  0 <= noise <= hi - lo, wherever they are finite *)
Theorem C06_bounds : forall g img lo hi y c, real_geom g -> wf g -> in_image g y c ->
  (forall y' c' w, in_image g y' c' -> img y' c' = Some w -> lo <= w <= hi) ->
  (forall b, bane_bkg g img y c = Some b -> lo <= b <= hi)
  /\ (forall s, bane_rms g img y c = Some s -> 0 <= s <= hi - lo).
Proof. intros g img lo hi y c Hg Hwf. apply bounds_abstract; auto using est_mean_range, est_std_range, real_suball. Qed.

(* masking on: a non-finite input pixel is NaN in both maps *)
Theorem C06_mask_nan : forall g img y c, dm g = true -> img y c = None ->
  bane_bkg g img y c = None /\ bane_rms g img y c = None.
Proof. intros g img y c. apply mask_nan_abstract. Qed.

(* masking on or off: a pixel with no blank pixel within box/2 + grid (per axis: near g 1) is finite in BOTH maps.
   (sigmaclip drops non-finite samples, so a node is NaN only when its whole box is blank; the noise of a pixel needs, in
   the box of each of its four nodes, one pixel whose background is finite - a pixel of its own cell, or its neighbour when
   the last cell of the image is one pixel wide, whose own four boxes stay within box/2 + grid of the pixel.)
   Sharper facts proved on the way (Proofs/BaneFilterProofs.v): pass_finite_nodes - a map is finite at a pixel as soon as
   each of the four corner boxes of its cell holds ONE finite value; bkg_raw_finite_cell - for the background only the
   rows [cell_lo - box/2, cell_hi + box/2) and the corresponding columns matter. *)
Theorem C06_mask_far_finite : forall g img y c, real_geom g -> wf g -> (2 <= nr g)%Z -> (2 <= nc g)%Z -> in_image g y c ->
  (forall y' c', in_image g y' c' -> near g 1 y c y' c' -> img y' c' <> None) ->
  bane_bkg g img y c <> None /\ bane_rms g img y c <> None.
Proof. intros g img y c Hg Hwf. apply far_finite_abstract; auto using real_suball. Qed.

Theorem C06_no_blank_in_no_blank_out : forall g img y c, real_geom g -> wf g -> (2 <= nr g)%Z -> (2 <= nc g)%Z -> in_image g y c ->
  (forall y' c', in_image g y' c' -> img y' c' <> None) -> bane_bkg g img y c <> None /\ bane_rms g img y c <> None.
Proof. intros g img y c Hg Hwf. apply no_blank_abstract; auto using real_suball. Qed.

(* the executable sigma clipping over Q (mean, variance; comparisons decided by squares) computes the real-valued one *)
Theorem C06_sigmaclip_q_is_r : forall l, l <> [] ->
  let r := sigmaclip_q clip_lo clip_hi clip_lower_strict clip_upper_strict clip_reps l in
  est_mean_r (map Q2R l) = Q2R (fst r) /\ est_std_r (map Q2R l) = sqrt (Q2R (snd r)).
Proof. exact sigmaclip_q_is_r. Qed.

(* the hypotheses real_geom, wf and in_image have instances *)
Example C06_real_geom : forall a b c d e f w m, real_geom (the_geom a b c d e f w m).
Proof. intros. reflexivity. Qed.
Example C06_wf_example : wf (the_geom 9 7 2 2 4 4 3 true) /\ in_image (the_geom 9 7 2 2 4 4 3 true) 8 6.
Proof. unfold wf, in_image. cbn. repeat split; try reflexivity; discriminate. Qed.
(* the executable model on a 5 x 4 constant image in 3 stripes, statistic (max, max - min): 5 and 0 everywhere *)
Example C06_constant_runs :
  run_maxrange (the_geom 5 4 2 2 4 4 2 true) (repeat (repeat (Some (5 # 1)%Q) 4) 5)
  = (repeat (repeat (Some (5 # 1)%Q) 4) 5, repeat (repeat (Some (0 # 1)%Q) 4) 5).
Proof. vm_compute. reflexivity. Qed.
(* a blank pixel is blank in both maps and its surroundings stay finite *)
Example C06_mask_runs :
  let o := run_maxrange (the_geom 4 4 1 1 4 4 4 true)
             [[Some 1%Q; Some 2%Q; Some 3%Q; Some 4%Q]; [Some 1%Q; None; Some 3%Q; Some 4%Q];
              [Some 1%Q; Some 2%Q; Some 3%Q; Some 4%Q]; [Some 1%Q; Some 2%Q; Some 3%Q; Some 4%Q]] in
  nth 1 (nth 1 (fst o) []) None = None /\ nth 1 (nth 1 (snd o) []) None = None /\ nth 0 (nth 0 (fst o) []) None <> None.
Proof. vm_compute. repeat split. discriminate. Qed.

Print Assumptions C06_shift.
Print Assumptions C06_scale.
Print Assumptions C06_bounds.
Print Assumptions C06_mask_far_finite.
Print Assumptions C06_sigmaclip_q_is_r.
