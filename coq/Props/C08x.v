(* C08 (extension) - MIMAS.combine_regions / intersect_regions are set algebra on sky pixels, in the documented order.
   Statements; each proof is `exact <lemma>` or a few lines from the lemmas of Proofs/CombineProofs.v (on top of
   Proofs/RegionProofs.v), and the examples are evaluated.  The order of the stages, the depths of the fresh regions, the renorm
   flag, the insertion depth of shapes, the galactic branches and the skeleton of intersect_regions are regenerated from
   MIMAS.py / regions.py / CLI/MIMAS.py into Gen/Combine.v on every run.

   container (Model/CombineModel.v) = the Dummy / argparse object AFTER Region.load and healpy have answered:
   operand regions, and for every circle / polygon the pixel list healpy returns (`plain`: coordinates as FK5, `conv`: after
   galactic2fk5).  wf c = maxdepth >= 1, +r regions valid (any depth), -r regions valid with coherent cache, shape pixels valid
   for depth maxdepth. *)
From Coq Require Import ZArith Bool List Lia.
From Aegean Require Import Gen.Regions Gen.Combine Model.RegionModel Model.RegionSpec Model.CombineModel
  Proofs.RegionProofs Proofs.CombineProofs.
Import ListNotations.
Open Scope Z_scope.

(* combine_regions raises (AssertionError, model: None) exactly when a subtracted region file has another depth than the
   container; region files that are ADDED may have any depth *)
Theorem C08x_combine_raises : forall c, wf c ->
  (combine c = None <-> exists r, In r (rem_region c) /\ depth r <> maxdepth c).
Proof. exact combine_raises. Qed.

(* otherwise the pixel set of the result is exactly
     ((((regions_added \ regions_removed) U circles_added) \ circles_removed) U polygons_added) \ polygons_removed
   (combine_spec, Model/CombineModel.v) - the documented order, left to right; obtained from C08_refines_history
   (history_refines) applied to the generated list of operations *)
Theorem C08x_combine_refines : forall c s, wf c -> combine c = Some s ->
  forall q, absP s q <-> combine_spec c q.
Proof. exact combine_refines. Qed.

(* every operation that combine_regions issues renormalises (union is called with renorm = True - a generated constant -,
   without on equal depths, add_circles / add_poly always), so the result is always in normal form: valid pixel ids, no
   patch of sky stored twice, nothing left to merge; the empty container gives the empty region *)
Theorem C08x_combine_normal_form : forall c s, wf c -> combine c = Some s ->
  Forall (fun o => renormalises (maxdepth c) o = true) (combine_ops c) /\
  Inv s /\ depth s = maxdepth c /\ no_overlap s /\ no_mergeable s.
Proof.
  intros c s Hwf Hs. destruct (combine_some c s Hwf Hs) as [-> Hdep].
  pose proof (combine_ops_renormalise c Hdep) as Hren. split; [exact Hren|].
  pose proof (combine_ops_ok c Hwf) as Hok.
  destruct (reachable_inv (maxdepth c) (combine_ops c) (proj1 Hwf) Hok) as [HI HDp].
  split; [exact HI|]. split; [exact HDp|].
  apply (run_normal (maxdepth c)); [apply init_Inv, Hwf | reflexivity | exact Hok | exact Hren|].
  intros _. apply init_normal.
Qed.

(* the healpy queries behind a shape are nested-scheme queries at nside 2^depth *)
Theorem C08x_shape_queries : circle_query_nest = true /\ poly_query_nest = true /\
  (forall d, circle_nside d = 2 ^ d) /\ (forall d, poly_nside d = 2 ^ d).
Proof. exact shape_queries. Qed.

(* both circle stages contain `if container.galactic: .. galactic2fk5(l, b)`, so circles are converted from galactic
   coordinates when the container says so (polygons are NOT: Refuted/C08x_galactic_polygons.v) *)
Theorem C08x_galactic_circles : galactic_incl_circles = true /\ galactic_excl_circles = true.
Proof. split; reflexivity. Qed.

(* the command line: -depth defaults to 8 (as the help text and Dummy say), `--intersect` with exactly one file is refused, and a
   +r / -r option loads the FIRST file name it was given *)
Theorem C08x_cli_defaults :
  cli_default_depth = 8 /\ cli_intersect_single = 1 /\ add_region_file_index = 0 /\ rem_region_file_index = 0.
Proof. repeat split. Qed.

(* intersect_regions: fewer than two files -> Exception; a later file of another depth than the first -> AssertionError;
   equal depths -> the intersection of the pixel sets, in normal form *)
Theorem C08x_intersect_too_few : forall fl, (length fl < 2)%nat -> intersect_regions fl = ITooFew.
Proof. exact intersect_too_few. Qed.

Theorem C08x_intersect_raises : forall a rest, rest <> [] -> Inv a -> Forall Inv rest ->
  (intersect_regions (a :: rest) = IDepth <-> exists r, In r rest /\ depth r <> depth a).
Proof. exact intersect_raises. Qed.

Theorem C08x_intersect_refines : forall a rest D, rest <> [] -> Inv a -> Forall Inv rest ->
  depth a = D -> (forall r, In r rest -> depth r = D) ->
  exists s, intersect_regions (a :: rest) = IOk s /\
    (forall q, absP s q <-> forall r, In r (a :: rest) -> absP r q) /\
    Inv s /\ depth s = D /\ no_overlap s /\ no_mergeable s.
Proof. exact intersect_refines. Qed.

(* the order is part of the statement: the same container with stages 3 and 4 (add circles / subtract circles) swapped
   gives another region *)
Definition C08x_order_container : container :=
  mkContainer 3 false [] [] [mkShape [5; 6] []] [mkShape [5] []] [] [].

Theorem C08x_combine_order_matters :
  option_map region_obs (combine C08x_order_container) = Some ([[]; []; [6]], [6]) /\
  option_map region_obs (combine_order [1; 2; 4; 3; 5; 6] C08x_order_container) = Some ([[]; []; [5; 6]], [5; 6]).
Proof. split; vm_compute; reflexivity. Qed.

(* ... and with union(renorm=False) the add-regions stage would leave sky stored twice: the normal-form theorem really uses the
   generated renorm flag *)
Example C08x_union_without_renorm_overlaps :
  cells (run (init 3) [Union (mkRegion 3 [(2, 0)] false) false; Union (mkRegion 3 [(3, 1)] false) false])
  = [(3, 1); (2, 0)].
Proof. vm_compute; reflexivity. Qed.

(* non-vacuity: a container with every stage populated, a finer (+r at depth 5) and a coarser cell, galactic = true *)
Definition C08x_example : container :=
  mkContainer 3 true
    [mkRegion 3 [(3, 0); (3, 1); (3, 2); (3, 3); (2, 5)] false; mkRegion 5 [(5, 1300); (1, 11)] false]
    [mkRegion 3 [(3, 1); (2, 44)] false]
    [mkShape [8; 9; 10; 11] [12; 13]] [mkShape [9] [13; 20]]
    [mkShape [40; 41] [7]] [mkShape [41; 21] [40]].

(* circles use the converted answers (12, 13 added; 13, 20 removed), polygons the plain ones (40, 41 added; 41, 21 removed);
   176..179 = cell (2,44) removed from 176..191 = cell (1,11); 180..191 merged to (2,45) (2,46) (2,47) *)
Example C08x_example_result :
  option_map cells (combine C08x_example) =
  Some [(2, 45); (2, 46); (2, 47); (3, 40); (3, 22); (3, 23); (3, 12); (3, 0); (3, 2); (3, 3); (3, 81)].
Proof. vm_compute; reflexivity. Qed.

Example C08x_example_wf : wf C08x_example.
Proof.
  unfold wf, C08x_example, Inv, valid, cache_ok, shape_ok, pix_ok, vcell;
    cbn [maxdepth add_region rem_region include_circles exclude_circles include_polygons exclude_polygons depth cells cached
         plain conv fst snd].
  (* what the list and pair constructors leave are comparisons between numerals, and the cache_ok of the -r region, whose
     premise is false = true *)
  repeat (apply Forall_cons || apply Forall_nil || split); cbn [depth cells cached fst snd]; lia.
Qed.

(* the theorems apply to it: pixel 22 (from cell (2,5), not removed) is in, pixel 21 (removed by the polygon) is out *)
Example C08x_example_refines : exists s, combine C08x_example = Some s /\
  (forall q, absP s q <-> combine_spec C08x_example q) /\ no_overlap s /\ no_mergeable s.
Proof.
  destruct (combine C08x_example) as [s|] eqn:E; [|vm_compute in E; discriminate E].
  exists s. split; [reflexivity|]. split; [exact (C08x_combine_refines _ _ C08x_example_wf E)|].
  exact (proj2 (proj2 (proj2 (C08x_combine_normal_form _ _ C08x_example_wf E)))).
Qed.

(* a depth-2 region file given to -r at depth 3: AssertionError *)
Example C08x_example_raises :
  combine (mkContainer 3 false [mkRegion 2 [(2, 1)] false] [mkRegion 2 [(2, 1)] false] [] [] [] []) = None.
Proof. vm_compute; reflexivity. Qed.

Example C08x_intersect_example :
  intersect_obs [mkRegion 3 [(2, 0); (3, 77)] false; mkRegion 3 [(3, 1); (3, 2); (3, 77)] false; mkRegion 3 [(2, 0); (2, 19)] false]
  = (0, ([[]; []; [1; 2; 77]], [1; 2; 77])) /\
  intersect_obs [mkRegion 3 [(2, 0)] false; mkRegion 2 [(2, 0)] false] = (2, ([], [])) /\
  intersect_obs [mkRegion 3 [(2, 0)] false] = (1, ([], [])) /\ intersect_obs [] = (1, ([], [])).
Proof. repeat split; vm_compute; reflexivity. Qed.

Print Assumptions C08x_combine_raises.
Print Assumptions C08x_combine_refines.
Print Assumptions C08x_combine_normal_form.
Print Assumptions C08x_shape_queries.
Print Assumptions C08x_galactic_circles.
Print Assumptions C08x_cli_defaults.
Print Assumptions C08x_intersect_too_few.
Print Assumptions C08x_intersect_raises.
Print Assumptions C08x_intersect_refines.
Print Assumptions C08x_combine_order_matters.
Print Assumptions C08x_example_refines.
