(* C09 (extension) - the front end that turns user shapes into the circles / polygons / pixel sets of C09:
   MIMAS.circle2circle, box2poly, poly2poly, reg2mim (DS9 region text), MIMAS.mask2mim (image mask) and the scalar / sequence
   handling of Region.add_circles.  Statements; each proof is `exact <lemma>` or one line from a lemma of Proofs/Ds9Proofs.v, and
   the examples are evaluated; the model is in Model/Ds9.v over the leaves Gen/Ds9.v (regenerated from MIMAS.py / regions.py on every run).

   Text is a list of character codes; ds9_delims = white space ( ) , is the generated character class of re.split.
   astropy (Angle, SkyCoord, float parsing), healpy (vec2pix, ang2pix) and wcslib (all_pix2world) are NOT axiomatised: they are
   function arguments, and every theorem that needs a fact about them is an implication from a named hypothesis which the
   harness validates against the real library on every run. *)
From Coq Require Import Reals ZArith Bool List.
From Aegean Require Import Lib.RBase Gen.Ds9 Model.RegionModel Model.RegionSpec Model.SkyCoords Model.SkyCoordsSpec Model.Ds9
  Proofs.Ds9Proofs.
Import ListNotations.
Open Scope Z_scope.

(* circle(a,b,rq): centre (a, b) degrees - a x 15 when it is written h:m:s -, radius r / 3600 degrees.  The character q after the
   number is cut off WITHOUT being looked at (so r' and rd are read as arc seconds too, and a radius without unit suffix loses
   its last digit: recorded finding, see the harness notes).
   A1: Angle(s, arcsec).degree = float(s) / 3600 for decimal s;  A2: Angle(s, hour).degree = 15 Angle(s, deg).degree *)
Theorem C09x_circle_units : forall (A : astro) (numeric coordinate : str -> Prop),
  (forall s, numeric s -> angle_str A 3 s = (pyfloat A s / 3600)%R) ->
  (forall s, coordinate s -> angle_str A 1 s = (15 * angle_str A 0 s)%R) ->
  forall head d1 a d2 b d3 r q d4 tail,
  clean ds9_delims head -> clean ds9_delims a -> clean ds9_delims b -> clean ds9_delims (r ++ [q]) ->
  delim ds9_delims d1 -> delim ds9_delims d2 -> delim ds9_delims d3 -> delim ds9_delims d4 ->
  coordinate a -> numeric r ->
  circle2circle A (head ++ d1 :: a ++ d2 :: b ++ d3 :: (r ++ [q]) ++ d4 :: tail) =
  Some ((if has_colon a then 15 * angle_str A 0 a else angle_str A 0 a)%R, angle_str A 0 b, (pyfloat A r / 3600)%R).
Proof. exact circle_units. Qed.

(* polygon(a1,b1,...,an,bn) + white space: exactly the n pairs, in file order, none dropped or duplicated ... *)
Theorem C09x_poly_vertices_in_order : forall head vs tail,
  clean ds9_delims head -> Forall (fun v => coordword (fst v) /\ coordword (snd v)) vs ->
  Forall (fun c => is_in c ws_chars = true) tail ->
  poly_sym (head ++ join (pair_text 40 vs) ++ 41 :: tail) = map units_of vs.
Proof. exact poly_vertices_in_order. Qed.

(* ... and with an odd number of coordinates the last one is dropped without a message *)
Theorem C09x_poly_odd_drops_last : forall head vs x tail,
  clean ds9_delims head -> Forall (fun v => coordword (fst v) /\ coordword (snd v)) vs -> clean ds9_delims x ->
  Forall (fun c => is_in c ws_chars = true) tail ->
  poly_sym (head ++ join (pair_text 40 vs ++ [(44, x)]) ++ 41 :: tail) = map units_of vs.
Proof. exact poly_odd_drops_last. Qed.

(* box a b w'' h'' ...: corners = centre (as SkyCoord reports it) +- w / 7200, +- h / 7200 degrees IN COORDINATES, order ++ -+ -- +-
   (A3: Angle(x, arcsec).degree = x / 3600).  No 1 / cos(dec) on the RA side and no rotation: recorded findings *)
Theorem C09x_box_corners : forall (A : astro), (forall x, angle_num A 3 x = (x / 3600)%R) ->
  forall line head a b w qw h qh rest,
  split ds9_delims line = head :: a :: b :: (w ++ [qw]) :: (h ++ [qh]) :: rest ->
  let c := skycoord A (angle_str A (if has_colon a then 1 else 0) a) (angle_str A 0 b) in
  let hw := (pyfloat A w / 7200)%R in let hh := (pyfloat A h / 7200)%R in
  box2poly A line = Some [(fst c + hw, snd c + hh); (fst c - hw, snd c + hh); (fst c - hw, snd c - hh); (fst c + hw, snd c - hh)]%R.
Proof. exact box_corners_thm. Qed.

(* opposite corners are symmetric about the centre and the sides run along RA / Dec *)
Theorem C09x_box_symmetric : forall ra dec w h p1 p2 p3 p4, box_corners ra dec w h = [p1; p2; p3; p4] ->
  (fst p1 + fst p3 = 2 * ra /\ snd p1 + snd p3 = 2 * dec /\ fst p2 + fst p4 = 2 * ra /\ snd p2 + snd p4 = 2 * dec /\
   snd p1 = snd p2 /\ fst p2 = fst p3 /\ snd p3 = snd p4 /\ fst p4 = fst p1)%R.
Proof. exact box_symmetric. Qed.

(* the rotation angle (anything after the fifth word) is never read *)
Theorem C09x_box_angle_ignored : forall A l1 l2, firstn 5 (split ds9_delims l1) = firstn 5 (split ds9_delims l2) ->
  box2poly A l1 = box2poly A l2.
Proof. exact box_angle_ignored. Qed.

(* add_circles: a scalar circle is the one-element sequence; n circles in one call = the union of the n one-circle regions *)
Theorem C09x_add_circles_scalar_list : forall hp s ra dec r d,
  add_circles_args hp s (CScalar ra dec r) d = add_circles_args hp s (CVector [ra] [dec] [r]) d.
Proof. exact add_circles_scalar_list. Qed.

Theorem C09x_add_circles_union : forall hp, H0_disc_valid hp -> forall s ras decs rs d q,
  Inv s -> depth_ok d ->
  (absP (add_circles_args hp s (CVector ras decs rs) d) q <->
   absP s q \/ exists c, In c (combine (combine ras decs) rs) /\
                         absP (add_circles_args hp (init (depth s)) (CScalar (fst (fst c)) (snd (fst c)) (snd c)) d) q).
Proof. intros hp _. exact (add_circles_union hp). Qed.

(* mask2mim takes exactly the pixels (row r, column c) with a non-NaN value >= threshold ... *)
Theorem C09x_mask2mim_selection : forall img thr r c,
  In (r, c) (selected img thr) <-> 0 <= r /\ 0 <= c /\ exists x, pixel_value img r c = Some (Some x) /\ thr <= x.
Proof. exact selected_spec. Qed.

(* ... the sky position all_pix2world(c, r, 0) of each of them is inside the region (asked in degrees or radians) ...
   V1: hp.vec2pix(2^d, ang2vec(t, p), nest) = hp.ang2pix(2^d, t, p, nest) for 0 < t < pi (at the pole the vector forgets p);  V2: it is a valid pixel number;  H5: nested numbering *)
Theorem C09x_mask2mim_covers : forall hp (vec2pix : Z -> bool -> vec -> Z) (pix2world : R -> R -> Z -> R * R),
  H5_nested hp ->
  (forall d t p, (0 < t < PI)%R -> vec2pix d true (ang2vec hp t p) = ang2pix hp d true t p) ->
  (forall d v, 1 <= d -> 0 <= vec2pix d true v < 12 * 4 ^ d) ->
  forall D img thr r c, 1 <= D -> In (r, c) (selected img thr) ->
  let s := pix2world (IZR c) (IZR r) 0 in (- 90 < snd s < 90)%R ->
  sky_within1 hp (mask2mim hp vec2pix pix2world D img thr) (Some (fst s)) (Some (snd s)) true = true /\
  sky_within1 hp (mask2mim hp vec2pix pix2world D img thr) (Some (rad (fst s))) (Some (rad (snd s))) false = true.
Proof. exact mask2mim_covers. Qed.

(* ... and nothing else, up to one HEALPix cell of depth D: a position inside the region shares its depth-D pixel with the sky
   position of a selected image pixel *)
Theorem C09x_mask2mim_only : forall hp (vec2pix : Z -> bool -> vec -> Z) (pix2world : R -> R -> Z -> R * R),
  H5_nested hp ->
  (forall d t p, (0 < t < PI)%R -> vec2pix d true (ang2vec hp t p) = ang2pix hp d true t p) ->
  (forall d v, 1 <= d -> 0 <= vec2pix d true v < 12 * 4 ^ d) ->
  forall D img thr ra dec, 1 <= D -> (- (PI / 2) <= dec <= PI / 2)%R ->
  (forall r c, In (r, c) (selected img thr) -> (- 90 < snd (pix2world (IZR c) (IZR r) 0%Z) < 90)%R) ->
  sky_within1 hp (mask2mim hp vec2pix pix2world D img thr) (Some ra) (Some dec) false = true ->
  exists r c, In (r, c) (selected img thr) /\
    let s := pix2world (IZR c) (IZR r) 0 in
    ang2pix hp D true (PI / 2 - dec) ra = ang2pix hp D true (PI / 2 - rad (snd s)) (rad (fst s)).
Proof. exact mask2mim_only. Qed.

(* defaults and guards that users see *)
Theorem C09x_defaults : mask_default_threshold = 1 /\ mask_default_depth = 8 /\ poly_min_vertices = 3 /\ reg_comment_char = 35.
Proof. repeat split. Qed.

(* non-vacuity: concrete lines through the model (characters as codes) *)
(* circle(12:30:00,-00:30:00,36 + double quote) -> ra word as hours, dec word as degrees, 36 as arc seconds *)
Example C09x_circle_example :
  circle_sym [99;105;114;99;108;101;40; 49;50;58;51;48;58;48;48; 44; 45;48;48;58;51;48;58;48;48; 44; 51;54;34; 41; 10] =
  Some ((1, [49;50;58;51;48;58;48;48]), (0, [45;48;48;58;51;48;58;48;48]), (3, [51;54])).
Proof. vm_compute. reflexivity. Qed.

(* polygon(1,2,3,4,5,6) keeps three vertices; polygon(1,2, 3,4, 5,6) - a blank after every second comma - silently keeps only
   (1,2) and (5,6): the hypothesis "comma only" of C09x_poly_vertices_in_order is needed (recorded finding) *)
Example C09x_poly_example :
  poly_sym [112;111;108;121;103;111;110;40; 49;44;50;44;51;44;52;44;53;44;54; 41] =
    [((0, [49]), (0, [50])); ((0, [51]), (0, [52])); ((0, [53]), (0, [54]))] /\
  poly_sym [112;111;108;121;103;111;110;40; 49;44;50;44;32;51;44;52;44;32;53;44;54; 41] =
    [((0, [49]), (0, [50])); ((0, [53]), (0, [54]))].
Proof. split; vm_compute; reflexivity. Qed.

(* a 2 x 3 mask with a NaN: pixels >= 1 in row-major (row, col) order; the region of pixels 5 6 7 4 (one complete depth-2 cell)
   and 100 at depth 3 is stored in normal form *)
Example C09x_mask_example :
  selected [[Some 0; Some 1; None]; [Some 2; Some 0; Some 1]] 1 = [(0, 1); (1, 0); (1, 2)] /\
  mask_obs 3 [5; 6; 7; 4; 100] = [[]; [1]; [100]].
Proof. split; vm_compute; reflexivity. Qed.

Print Assumptions C09x_circle_units.
Print Assumptions C09x_poly_vertices_in_order.
Print Assumptions C09x_box_corners.
Print Assumptions C09x_add_circles_union.
Print Assumptions C09x_mask2mim_covers.
Print Assumptions C09x_mask2mim_only.
