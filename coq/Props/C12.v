(* C12 - Region exports (MOC FITS, DS9 reg, .mim) describe exactly the region's sky area.
   Statements; each proof is `exact <lemma>` or a few lines from the lemmas of
   Proofs/RegionExportProofs.v (and, for the histories, Proofs/RegionProofs.v of C08), and the examples
   are evaluated.  The leaves (NUNIQ loop range and code, MOCORDER,
   write_reg level range and healpy.boundaries arguments, column width, keywords) are regenerated from
   regions.py into Gen/Regions.v and Gen/RegionExport.v on every run.  healpy.boundaries and pickle are
   hypotheses of the theorems that mention them (validated against the libraries on every run). *)
From Coq Require Import ZArith Bool List Lia Permutation.
From Aegean Require Import Gen.Regions Gen.RegionExport Model.RegionModel Model.RegionSpec
  Model.RegionExport Proofs.RegionProofs Proofs.RegionExportProofs.
Import ListNotations.
Open Scope Z_scope.

(* the NUNIQ codec: decoding (order = floor(log4(u/4)), pixel = u - 4*4^order) inverts the
   generated code 4^(d+1) + p for every valid pixel of every level *)
Theorem C12_ununiq_uniq : forall d p, 0 <= d -> 0 <= p < 12 * 4 ^ d -> ununiq (uniq_code d p) = (d, p).
Proof. exact ununiq_uniq. Qed.

Theorem C12_uniq_inj : forall d1 p1 d2 p2,
  0 <= d1 -> 0 <= p1 < 12 * 4 ^ d1 -> 0 <= d2 -> 0 <= p2 < 12 * 4 ^ d2 ->
  uniq_code d1 p1 = uniq_code d2 p2 -> d1 = d2 /\ p1 = p2.
Proof. exact uniq_inj. Qed.

(* the exported list: every stored cell of every level 1..depth (the deepest included) is
   exported, nothing else, nothing twice *)
Theorem C12_uniq_complete : forall s u, valid s ->
  (In u (uniq s) <-> exists c, In c (cells s) /\ u = uniq_code (fst c) (snd c)).
Proof. exact uniq_complete. Qed.

Theorem C12_uniq_nodup : forall s, valid s -> NoDup (uniq s).
Proof.
  intros s Hv. apply (NoDup_map_inv ununiq). rewrite decode_reg_cells by exact Hv. apply NoDup_reg_cells. Qed.

Theorem C12_decode_is_cells : forall s c, valid s -> (In c (map ununiq (uniq s)) <-> In c (cells s)).
Proof. exact decode_is_cells. Qed.

(* the stated order: MOCORDER = region depth, and every decoded cell has a level within
   1..MOCORDER and a valid pixel number for its level *)
Theorem C12_order : forall s, moc_order (write_fits s) = depth s /\ mocorder (depth s) = depth s.
Proof. exact moc_order_is_depth. Qed.

Theorem C12_decoded_levels : forall s u, valid s -> In u (uniq s) ->
  1 <= fst (ununiq u) <= mocorder (depth s) /\ 0 <= snd (ununiq u) < 12 * 4 ^ fst (ununiq u).
Proof.
  intros s u Hv Hu. rewrite mocorder_eq. apply (vcells_in _ _ _ (proj2 Hv)).
  apply (decode_is_cells s _ Hv), in_map, Hu.
Qed.

Theorem C12_keywords : forall s,
  moc_nuniq (write_fits s) = true /\ moc_healpix (write_fits s) = true /\ moc_icrs (write_fits s) = true.
Proof.
  intros s. unfold write_fits. cbn [moc_nuniq moc_healpix moc_icrs].
  rewrite fits_ordering_nuniq_eq, fits_pixtype_healpix_eq, fits_coordsys_icrs_eq. repeat split.
Qed.

(* the codes fit the (signed) integer column for every depth HEALPix supports *)
Theorem C12_fits_column : forall s, valid s -> depth s <= 29 ->
  Forall (fun u => 0 < u < 2 ^ (fits_column_bits - 1)) (uniq s).
Proof. exact uniq_fits_column. Qed.

(* decoding the NUNIQ list yields exactly the region's pixel set (absP and cover are the
   specification of C08: the set of deepest-level pixels the region stands for) *)
Theorem C12_moc_is_region : forall s, valid s ->
  forall q, absP s q <-> exists u, In u (uniq s) /\ cover (depth s) (ununiq u) q.
Proof. exact moc_is_region. Qed.

(* the same for the executable reader: decode every value, expand to pixels of order MOCORDER *)
Theorem C12_moc_pixels : forall s, valid s -> forall q, In q (moc_pixels (write_fits s)) <-> absP s q.
Proof. exact moc_pixels_is_region. Qed.

(* whatever operations or queries preceded the export: for every history of well-formed
   operations (queries that demote the representation included) the file states the depth, and its
   decoded content is the set-algebra fold of the operations *)
Theorem C12_moc_after_history : forall D ops, 1 <= D -> Forall (op_ok D) ops ->
  let s := run (init D) ops in
  moc_order (write_fits s) = D /\
  (forall q, (exists u, In u (moc_npix (write_fits s)) /\ cover (moc_order (write_fits s)) (ununiq u) q)
             <-> fold_left (spec_step D) ops (fun _ => False) q) /\
  (forall q, In q (moc_pixels (write_fits s)) <-> fold_left (spec_step D) ops (fun _ => False) q).
Proof. exact moc_after_history. Qed.

Theorem C12_export_after_query : forall s o, Inv s ->
  match o with Within _ | GetDemoted | GetArea | Uniq | SaveLoad => True | _ => False end ->
  forall q, In q (moc_pixels (write_fits (fst (step s o)))) <-> In q (moc_pixels (write_fits s)).
Proof. exact export_after_query. Qed.

(* DS9 export: one polygon per distinct stored cell (each exactly once, all levels 1..depth) *)
Theorem C12_reg_cells : forall s, valid s ->
  NoDup (reg_cells s) /\ (forall c, In c (reg_cells s) <-> In c (cells s)) /\
  Permutation (reg_cells s) (nodup cell_eq_dec (cells s)).
Proof. exact reg_cells_exact. Qed.

Theorem C12_reg_count : forall (vertex : Type) (boundaries : Z -> Z -> Z -> bool -> list vertex) s, valid s ->
  length (write_reg vertex boundaries s) = length (nodup cell_eq_dec (cells s)).
Proof. exact reg_count. Qed.

(* healpy is asked for exactly (nside = 2^level, pixel, step = 1, nested) of each stored cell ... *)
Theorem C12_reg_requests : forall s,
  reg_requests s = map (fun c => (2 ^ fst c, snd c, 1, true)) (reg_cells s).
Proof. exact reg_requests_exact. Qed.

(* ... so, given that healpy.boundaries(2^d, p, step=1, nest=True) are the corners of cell (d, p), the
   vertices of each polygon are that pixel's corners *)
Theorem C12_reg_polygons : forall (vertex : Type) (boundaries : Z -> Z -> Z -> bool -> list vertex)
  (corners : cell -> list vertex),
  (forall d p, 1 <= d -> 0 <= p < 12 * 4 ^ d -> boundaries (2 ^ d) p 1 true = corners (d, p)) ->
  forall s, valid s -> write_reg vertex boundaries s = map corners (reg_cells s).
Proof. exact reg_polygons_are_corners. Qed.

Theorem C12_reg_ra_in_hours : 360 = 24 * reg_ra_divisor.
Proof. exact reg_ra_in_hours. Qed.

(* .mim: save then load reproduces the region exactly (state, all later answers, and the
   MIMAS conversions mim2fits / mim2reg of the file), given that pickle round-trips the object *)
Theorem C12_saveload : forall (blob : Type) (dump : region -> blob) (load : blob -> region),
  (forall s, load (dump s) = s) ->
  forall s,
    load_mim blob load (save_mim blob dump s) = s /\
    (forall ops, trace (load_mim blob load (save_mim blob dump s)) ops = trace s ops) /\
    mim2fits blob load (save_mim blob dump s) = write_fits s /\
    mim2reg blob load (save_mim blob dump s) = reg_cells s.
Proof. exact saveload_id. Qed.

Theorem C12_saveload_step : forall s, step s SaveLoad = (s, OUnit).
Proof. intros s. reflexivity. Qed.

(* non-vacuity.  A multi-level history at depth 3: pixels 0..3 and 21 of level 3 (0..3 merge into
   (2,0)), a raw add_pixels of cell (1,5), then a membership query that demotes everything to level 3. *)
Definition C12_ops_before : list op := [AddShape 3 [0; 1; 2; 3; 21]; AddPixels 1 [5]].
Definition C12_ops_after : list op := C12_ops_before ++ [Within [21; 16; 5]].

(* before the query: three levels in use, the deepest (level 3, code 4^4 + 21 = 277) included *)
Example C12_example_before :
  uniq (run (init 3) C12_ops_before) = [21; 64; 277] /\
  map ununiq (uniq (run (init 3) C12_ops_before)) = [(1, 5); (2, 0); (3, 21)] /\
  reg_cells (run (init 3) C12_ops_before) = [(1, 5); (2, 0); (3, 21)] /\
  reg_requests (run (init 3) C12_ops_before) = [(2, 5, 1, true); (4, 0, 1, true); (8, 21, 1, true)].
Proof. vm_compute. repeat split. Qed.

(* the hypotheses of the history theorem hold for this history *)
Example C12_example_ops_ok : Forall (op_ok 3) C12_ops_after.
Proof.
  unfold C12_ops_after, C12_ops_before, op_ok. cbn [app].
  (* what the list and pair constructors leave are comparisons between numerals *)
  repeat (apply Forall_cons || apply Forall_nil || split); lia.
Qed.

(* after the query everything is stored at level 3: 16 + 4 + 1 codes, all >= 256; the file is NOT
   empty and decodes to the same 21 pixels *)
Example C12_example_after :
  length (uniq (run (init 3) C12_ops_after)) = 21%nat /\
  Forall (fun u => fst (ununiq u) = 3) (uniq (run (init 3) C12_ops_after)) /\
  (forall q, In q (moc_pixels (write_fits (run (init 3) C12_ops_after))) <->
             In q (moc_pixels (write_fits (run (init 3) C12_ops_before)))) /\
  length (nodup Z.eq_dec (moc_pixels (write_fits (run (init 3) C12_ops_before)))) = 21%nat.
Proof.
  split; [vm_compute; reflexivity|]. split.
  - apply Forall_forall. intros u Hu. apply Z.eqb_eq. revert u Hu.
    apply (proj1 (forallb_forall (fun u => fst (ununiq u) =? 3) _)). vm_compute. reflexivity.
  - split; [|vm_compute; reflexivity].
    pose proof C12_example_ops_ok as Hok. apply Forall_app in Hok. destruct Hok as [Hok _].
    destruct (reachable_inv 3 C12_ops_before ltac:(lia) Hok) as [HI _].
    unfold C12_ops_after, run. rewrite fold_left_app. cbn [fold_left].
    exact (C12_export_after_query _ (Within [21; 16; 5]) HI I).
Qed.

(* codec corner cases: first and last pixel of levels 1 and 29 *)
Example C12_example_codec :
  map ununiq [16; 63; 64; 255; 4 ^ 30; 4 ^ 30 + 12 * 4 ^ 29 - 1] =
  [(1, 0); (1, 47); (2, 0); (2, 191); (29, 0); (29, 12 * 4 ^ 29 - 1)].
Proof. vm_compute. reflexivity. Qed.

(* whole sky at depth 2 after a query: 192 codes, every pixel of level 2 *)
Example C12_example_whole_sky :
  let s := run (init 2) [AddPixels 1 (zrange 0 48); GetDemoted] in
  length (uniq s) = 192%nat /\ moc_order (write_fits s) = 2 /\
  nodup Z.eq_dec (moc_pixels (write_fits s)) = moc_pixels (write_fits s) /\
  length (moc_pixels (write_fits s)) = 192%nat.
Proof.
  (* the 192 codes are evaluated once; the rest is read off that list, and a zrange has no repetition *)
  intros s.
  assert (E : uniq s = map (Z.add 64) (zrange 0 192)) by (vm_compute; reflexivity).
  assert (E' : moc_pixels (write_fits s) = zrange 0 192).
  { unfold moc_pixels, decode, write_fits. cbn [moc_npix moc_order]. rewrite E. vm_compute. reflexivity. }
  rewrite E', E, map_length. split; [reflexivity|]. split; [reflexivity|].
  split; [apply nodup_fixed_point, NoDup_zrange | reflexivity].
Qed.

Print Assumptions C12_ununiq_uniq.
Print Assumptions C12_uniq_inj.
Print Assumptions C12_uniq_complete.
Print Assumptions C12_uniq_nodup.
Print Assumptions C12_decode_is_cells.
Print Assumptions C12_order.
Print Assumptions C12_decoded_levels.
Print Assumptions C12_keywords.
Print Assumptions C12_fits_column.
Print Assumptions C12_moc_is_region.
Print Assumptions C12_moc_pixels.
Print Assumptions C12_moc_after_history.
Print Assumptions C12_export_after_query.
Print Assumptions C12_reg_cells.
Print Assumptions C12_reg_count.
Print Assumptions C12_reg_requests.
Print Assumptions C12_reg_polygons.
Print Assumptions C12_reg_ra_in_hours.
Print Assumptions C12_saveload.
Print Assumptions C12_saveload_step.
Print Assumptions C12_example_after.
