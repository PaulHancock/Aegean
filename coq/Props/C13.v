(* C13 - Sign symmetry and polarity filters of the source finder.
   Statements; each proof is `exact <lemma>` or a few lines from the lemmas of Proofs/IslandProofs.v and
   Proofs/PolarityProofs.v; leaves regenerated into Gen/Islands.v and Gen/Polarity.v.

   What is proved here is the symmetry of everything that happens BEFORE and AFTER the optimiser:
   island detection, the initial values / bounds / flags handed to lmfit, and the polarity filter.
   That the Levenberg-Marquardt iterates for mirrored inputs are mirror images (up to round-off) is not
   proved; tools/harness/c13.py validates it on the real finder on every run. *)
From Coq Require Import ZArith QArith Bool List.
From Aegean Require Import Lib.QBase Lib.Ext Gen.Islands Gen.Polarity Model.IslandModel Model.Polarity
                           Proofs.IslandProofs Proofs.PolarityProofs.
Import ListNotations.

(* (a) negating image and background gives the same islands *)
Theorem C13_islands_symmetric : forall img fl sd, islands (neg_image img) fl sd = islands img fl sd.
Proof. exact sign_symmetric. Qed.

(* (b) FULL statement (false for the current code - see Refuted/C13_mixed_island.v):

     forall segs psf_ok ic oc ms shape isl, (forall p, In p isl -> ~ ip_val p == 0) ->
       Forall2 mirror_of (estimate gen_leaves segs psf_ok ic oc ms shape isl)
                         (estimate gen_leaves segs psf_ok ic oc ms shape (neg_island isl)).

   Proved part: islands whose pixels all have the same sign.  Missing: islands containing pixels of
   both signs (`isnegative` is "all pixels negative", whose mirror image is "all pixels positive",
   but the other branch is taken whenever some pixel is positive).
   mirror_of c c' : amp' = -amp, min' == -max, max' == -min, same peak position, component index,
   flags and vary switches (position / shape / angle values and bounds are functions of the peak
   position and the index only - checked by the translator, `other_parameters_value_independent`).
   segs = segmentation of the summit pixels (scipy label), psf_ok = psf finite at a position. *)
Theorem C13_estimate_mirrored_partial : forall segs psf_ok ic oc ms shape isl, single_signed isl ->
  Forall2 mirror_of (estimate gen_leaves segs psf_ok ic oc ms shape isl)
                    (estimate gen_leaves segs psf_ok ic oc ms shape (neg_island isl)).
Proof.
  apply (estimate_mirror gen_leaves); cbn [gen_leaves l_isneg_test l_summit_pixel_neg l_summit_pixel_pos
    l_sort_key_pixel l_amp_neg_uses_min l_peak_neg_uses_argmin l_amp_pos_uses_min l_peak_pos_uses_argmin
    l_snr_pixel l_amp_is_positive l_amp_min_pos l_amp_max_pos l_amp_min_neg l_amp_max_neg].
  - exact isneg_test_spec.
  - exact summit_pixel_neg_of_mirror.
  - exact sort_key_pixel_even.
  - exact amp_pick_opposite.
  - exact peak_pick_opposite.
  - exact snr_pixel_even.
  - exact amp_is_positive_spec.
  - exact amp_lower_mirror.
  - exact amp_upper_mirror.
Qed.

(* (c) polarity filter.  catalogue peak nopositive nonegative l = rows of l that survive the filter.
   For rows with finite non-zero peak: both-polarities = everything; the positive-only
   (nonegative) and negative-only (nopositive) catalogues interleave, in order, to the full list;
   they contain only the requested sign; they are disjoint; with both switches nothing is left. *)
Theorem C13_filter_partition : forall (row : Type) (peak : row -> option Q) (l : list row),
  (forall s, In s l -> finite_nonzero (peak s)) ->
  catalogue row peak false false l = l /\
  interleave (catalogue row peak false true l) (catalogue row peak true false l) l /\
  (forall s, In s (catalogue row peak false true l) -> is_pos (peak s)) /\
  (forall s, In s (catalogue row peak true false l) -> is_neg (peak s)) /\
  (forall s, ~ (In s (catalogue row peak false true l) /\ In s (catalogue row peak true false l))) /\
  catalogue row peak true true l = [].
Proof. exact filter_partition. Qed.

(* the hypothesis `finite_nonzero` is needed: a row whose peak flux is exactly zero or NaN is dropped
   by NO setting of the current filter - it is in the positive-only catalogue, in the negative-only
   one, and in the one where both polarities are switched off *)
Theorem C13_filter_zero_nan_survives : forall (row : Type) (peak : row -> option Q) (l : list row) s np nn,
  In s l -> (peak s = None \/ exists q, peak s = Some q /\ (q == 0)%Q) -> In s (catalogue row peak np nn l).
Proof. exact zero_nan_survives. Qed.

(* (d) the curvature map that _fit_island hands to estimate_lmfit_parinfo: wherever the filter window
   of a pixel is not a plateau (pixel = maximum = minimum of its window), the curvature of the negated
   image is minus the curvature of the image - whatever replaces non-finite pixels before the two rank
   filters, the replacement for the minimum filter must be the mirror image of the one for the
   maximum filter.  maxf / minf = scipy's filters on one window, with the (validated) hypothesis that
   negation exchanges them.  This is hypothesis `ip_curve (neg) = - ip_curve` of neg_island in (b). *)
Theorem C13_curvature_mirrored : forall maxf minf : list ev -> ev,
  (forall v, maxf (map neg_ev v) = neg_ev (minf v)) -> (forall v, minf (map neg_ev v) = neg_ev (maxf v)) ->
  forall w c, plateau_gen maxf minf w c = false ->
  curve_gen maxf minf (map neg_ev w) (neg_ev c) = (- curve_gen maxf minf w c)%Z.
Proof.
  intros maxf minf Hmax Hmin w c Hpl. unfold curve_gen.
  apply (curve_at_mirror maxf minf Hmax Hmin _ _ _ _ _ curv_fills_mirror curv_values_mirror w c Hpl).
Qed.

(* a local maximum beside a blank pixel: curvature -1; negated: local minimum beside a blank pixel: +1
   (max_ev / min_ev: the rank filters on windows from which the fill has removed every NaN - here
   the window is written with the blank pixel left out, which is what scipy's filters do with it) *)
Example ex_curvature :
  curve_gen max_ev min_ev [Fin 3; Fin 5; Fin 9; Fin 4; Fin 2; Fin 1; Fin 6; Fin 7] (Fin 9) = (-1)%Z /\
  curve_gen max_ev min_ev (map neg_ev [Fin 3; Fin 5; Fin 9; Fin 4; Fin 2; Fin 1; Fin 6; Fin 7]) (neg_ev (Fin 9)) = 1%Z /\
  plateau_gen max_ev min_ev [Fin 3; Fin 5; Fin 9; Fin 4; Fin 2; Fin 1; Fin 6; Fin 7] (Fin 9) = false /\
  plateau_gen max_ev min_ev [Fin 4; Fin 4; Fin 4] (Fin 4) = true.
Proof. vm_compute. auto. Qed.
Example ex_filters_exchange : forall v, In v [[Fin 3; Fin (-5); PInf]; [NInf; Fin 0]; [Fin 7]] ->
  max_ev (map neg_ev v) = neg_ev (min_ev v) /\ min_ev (map neg_ev v) = neg_ev (max_ev v).
Proof. intros v _. split; [apply max_ev_neg | apply min_ev_neg]. Qed.

Definition ex_p (r c v cu : Z) : ipx := mkIpx (r, c) (v # 1) (1 # 2) (cu # 1).
(* 4 x 6 island, all pixels positive, two local maxima (20 and 12), rms 1/2, clips 5 / 4 *)
Definition ex_isl : island :=
  [ex_p 0 1 5 0; ex_p 0 2 6 0; ex_p 0 3 5 0;
   ex_p 1 0 5 0; ex_p 1 1 8 0; ex_p 1 2 20 (-1); ex_p 1 3 9 0; ex_p 1 4 6 0; ex_p 1 5 5 0;
   ex_p 2 1 6 0; ex_p 2 2 9 0; ex_p 2 3 7 0; ex_p 2 4 12 (-1); ex_p 2 5 6 0;
   ex_p 3 2 5 0; ex_p 3 3 6 0; ex_p 3 4 7 0; ex_p 3 5 5 0].
Definition ex_est (isl : island) :=
  map (fun c => (c_amp c, c_pos c, c_index c)) (estimate gen_leaves segs4 (fun _ => true) (5 # 1) (4 # 1) None (4, 6)%Z isl).

Example ex_single_signed : single_signed ex_isl.
Proof.
  left. intros p Hin. repeat (destruct Hin as [<-|Hin]; [unfold Qlt; cbn; reflexivity|]). destruct Hin.
Qed.
Example ex_estimates :
  ex_est ex_isl = [(20 # 1, (1, 2)%Z, 0%Z); (12 # 1, (2, 4)%Z, 1%Z)] /\
  ex_est (neg_island ex_isl) = [((-20) # 1, (1, 2)%Z, 0%Z); ((-12) # 1, (2, 4)%Z, 1%Z)].
Proof. split; vm_compute; reflexivity. Qed.
Example ex_bounds :
  map (fun c => (Qred (c_min c), Qred (c_max c))) (estimate gen_leaves segs4 (fun _ => true) (5 # 1) (4 # 1) None (4, 6)%Z ex_isl)
  = map (fun c => (Qred (- c_max c), Qred (- c_min c)))
        (estimate gen_leaves segs4 (fun _ => true) (5 # 1) (4 # 1) None (4, 6)%Z (neg_island ex_isl)).
Proof. vm_compute. reflexivity. Qed.
Example ex_mirrored :
  Forall2 mirror_of (estimate gen_leaves segs4 (fun _ => true) (5 # 1) (4 # 1) None (4, 6)%Z ex_isl)
                    (estimate gen_leaves segs4 (fun _ => true) (5 # 1) (4 # 1) None (4, 6)%Z (neg_island ex_isl)).
Proof. apply C13_estimate_mirrored_partial, ex_single_signed. Qed.

(* the translator's dependency check on the remaining parameters is part of the generated file *)
Example ex_other_parameters : other_parameters_value_independent = true.
Proof. reflexivity. Qed.

(* filter: rows are their own peak fluxes *)
Definition ex_rows : list (option Q) := [Some (3 # 1); Some ((-2) # 1); Some (5 # 2); Some ((-7) # 3)].
Example ex_rows_ok : forall s, In s ex_rows -> finite_nonzero s.
Proof.
  intros s Hin. repeat (destruct Hin as [<-|Hin]; [eexists; split; [reflexivity|unfold Qeq; cbn; discriminate]|]).
  destruct Hin.
Qed.
Example ex_filter :
  catalogue _ (fun s => s) false true ex_rows = [Some (3 # 1); Some (5 # 2)] /\
  catalogue _ (fun s => s) true false ex_rows = [Some ((-2) # 1); Some ((-7) # 3)] /\
  catalogue _ (fun s => s) false false ex_rows = ex_rows /\
  catalogue _ (fun s => s) true true ex_rows = [].
Proof. vm_compute. auto. Qed.
(* a zero row and a NaN row are in every catalogue *)
Example ex_zero_nan :
  catalogue _ (fun s => s) true true [Some (3 # 1); Some (0 # 1); None; Some ((-2) # 1)] = [Some (0 # 1); None] /\
  catalogue _ (fun s => s) false true [Some (3 # 1); Some (0 # 1); None; Some ((-2) # 1)] = [Some (3 # 1); Some (0 # 1); None] /\
  catalogue _ (fun s => s) true false [Some (3 # 1); Some (0 # 1); None; Some ((-2) # 1)] = [Some (0 # 1); None; Some ((-2) # 1)].
Proof. vm_compute. auto. Qed.

Print Assumptions C13_islands_symmetric.
Print Assumptions C13_estimate_mirrored_partial.
Print Assumptions C13_filter_partition.
Print Assumptions C13_filter_zero_nan_survives.
Print Assumptions C13_curvature_mirrored.
