(* C13 (extension) - the global-data glue of the source finder (SourceFinder.load_globals, _make_bkg_rms, _load_aux_image and the
   first lines of find_sources_in_image / priorized_fit_islands / save_background_files).
   Statements; each proof is `exact <lemma>` or a few lines from the lemmas of Proofs/GlobalsProofs.v.
   The order of the statements of load_globals, its
   conditions, which map each block writes and which file / forced value it reads, the subtraction, the curvature constants, the
   mask block, the short cuts and the BANE call of _make_bkg_rms, the shape test of _load_aux_image and the transparent expansion of
   load_image_band are regenerated from source_finder.py / fits_tools.py into Gen/Globals.v on every run.

   globals bane inp = (state of the SourceFinder object after load_globals on a fresh object, true = returned normally).
   bane = BANE.filter_image on the selected image plane, a Section variable: the theorems that need something from it carry the
   hypothesis explicitly (shape; negation = C06_scale with k = -1), and bane_fake (the stand-in the harness patches in) satisfies them. *)
From Coq Require Import ZArith Bool List String.
From Aegean Require Import Gen.Globals Model.Globals Proofs.GlobalsProofs.
Import ListNotations.
Open Scope Z_scope.

(* the data that find_islands and the fitting see is the raw image minus the background map that is finally kept - subtracted
   exactly once, for every combination of rms= / bkg= / rmsin / bkgin / cube_index / mask / do_curve *)
Theorem C13x_background_subtracted_once : forall bane inp s, globals bane inp = (s, true) ->
  exists raw bkg, select inp = Some raw /\ s_bkg s = Some bkg /\ s_img s = Some (img_sub raw bkg).
Proof. exact background_subtracted_once. Qed.

(* decision table: each map comes from its file if one is given, else from the forced value, else from BANE *)
Theorem C13x_map_sources : forall bane inp s, globals bane inp = (s, true) ->
  exists raw, select inp = Some raw /\
    s_bkg s = Some (match i_bkgin inp with Some f => loaded f | None =>
                      match i_bkg inp with Some v => const_like v raw | None => fst (bane raw) end end) /\
    s_rms s = Some (match i_rmsin inp with Some f => loaded f | None =>
                      match i_rms inp with Some v => const_like v raw | None => snd (bane raw) end end) /\
    s_region s = region_of (i_mask inp).
Proof. exact map_sources. Qed.

(* BANE is not consulted when both files are given or both values are forced *)
Theorem C13x_bane_not_consulted : forall bane bane' s0 inp,
  (is_some (i_rmsin inp) && is_some (i_bkgin inp) || is_some (i_rms inp) && is_some (i_bkg inp)) = true ->
  load_globals bane s0 inp = load_globals bane' s0 inp.
Proof.
  intros bane bane' s0 inp H. unfold load_globals. rewrite !load_globals_gen_eq.
  destruct (s_img s0); [reflexivity|]. destruct (select_gen _ inp) as [raw|]; [|reflexivity]. unfold bkg_src, rms_src, maps0.
  destruct (i_rmsin inp), (i_bkgin inp), (i_rms inp), (i_bkg inp); try discriminate H; reflexivity.
Qed.

Theorem C13x_forced_rms_constant : forall bane inp s v, globals bane inp = (s, true) -> i_rmsin inp = None -> i_rms inp = Some v ->
  exists raw, select inp = Some raw /\ s_rms s = Some (const_like v raw).
Proof. exact forced_rms_constant. Qed.

(* first half of C13 at the glue level: negating the image, the background file and the forced background negates the data and the
   background that the finder uses and leaves the noise map alone (hypothesis on BANE: C06_scale with k = -1).  With
   C13_islands_symmetric the islands are then identical. *)
Theorem C13x_negation : forall bane, (forall a, bane (img_neg a) = (img_neg (fst (bane a)), snd (bane a))) ->
  forall inp s, i_do_curve inp = false -> globals bane inp = (s, true) ->
  globals bane (neg_inputs inp) = (neg_state s, true).
Proof. exact negation. Qed.

(* an accepted auxiliary image has the shape of the image, compressed or not; compressed files are expanded first *)
Theorem C13x_aux_shape : forall img f a, load_aux img f = Some a ->
  a = (if af_compressed f then af_expanded f else af_stored f) /\ shape a = shape img.
Proof.
  intros img f a. rewrite load_aux_eq, <- loaded_eq. destruct (shape_eqb (loaded f) img) eqn:E; [|discriminate].
  intro H. injection H as <-. split; [reflexivity | apply shape_eqb_eq, E].
Qed.
Theorem C13x_aux_accepts : forall img f, shape (loaded f) = shape img -> load_aux img f = Some (loaded f).
Proof. intros img f H. rewrite load_aux_eq. apply shape_eqb_eq in H. rewrite H. reflexivity. Qed.
Theorem C13x_shapes : forall bane, (forall a, shape (fst (bane a)) = shape a /\ shape (snd (bane a)) = shape a) ->
  forall inp s, globals bane inp = (s, true) ->
  exists raw bkg rms, select inp = Some raw /\ s_bkg s = Some bkg /\ s_rms s = Some rms /\ shape bkg = shape raw /\ shape rms = shape raw.
Proof. exact shapes. Qed.

(* the curvature map is computed from the raw image, before the background is subtracted *)
Theorem C13x_curvature_from_raw : forall bane inp s, globals bane inp = (s, true) ->
  exists raw, select inp = Some raw /\ s_curve s = if i_do_curve inp then Some (curvature raw) else None.
Proof. exact curvature_from_raw. Qed.

(* the early return: a SourceFinder object that holds data ignores every later request - another file name, other maps, other
   forced values.  (Full statement one would want for "reproducible": a second call with other inputs describes the other inputs;
   that is FALSE for the code, so only this part is stated.) *)
Theorem C13x_reload_is_noop_partial : forall bane s0 inp, s_img s0 <> None -> load_globals bane s0 inp = (s0, true).
Proof. exact reload_is_noop. Qed.
(* and a call that raised inside _load_aux_image leaves the RAW image behind: the next call returns at once with data from which
   no background was subtracted *)
Theorem C13x_failed_load_sticks : forall bane inp s inp', globals bane inp = (s, false) -> select inp <> None ->
  load_globals bane s inp' = (s, true) /\ s_img s = select inp.
Proof. exact failed_load_sticks. Qed.

(* cube_index not given (the default of load_globals / find_sources_in_image / priorized_fit_islands): the first plane is used, as in
   BANE.filter_image - the call behaves exactly like cube_index = 0 (same data, maps, exceptions) and stores cube_index = 0, which is
   what BANE and the later calls then see.  Stated at the GENERATED constant lg_cube_default_first_plane (through load_globals): on a
   tree without `if cube_index is None: cube_index = 0` directly after the early return the leaf lemma lg_cube_default_eq fails
   (regression record: Refuted/C13x_cube_default.v) *)
Theorem C13x_cube_default_first_plane : forall bane s0 inp, i_ci inp = None ->
  load_globals bane s0 inp = load_globals bane s0 (set_ci inp (Some 0%nat)) /\
  (forall s, s_img s0 = None -> load_globals bane s0 inp = (s, true) -> s_ci s = Some 0%nat).
Proof.
  intros bane s0 inp H. unfold load_globals. rewrite lg_cube_default_eq. split.
  - rewrite !load_globals_gen_eq. unfold select_gen, stored_state, bkg_src, rms_src, maps0, set_ci.
    cbn [i_is3d i_planes i_ci i_rms i_bkg i_rmsin i_bkgin i_do_curve i_mask]. rewrite H. reflexivity.
  - intros s H0 Hs. apply load_globals_gen_true in Hs; [|exact H0]. destruct Hs as [raw [_ [_ [_ ->]]]].
    cbn [stored_state s_ci]. rewrite H. reflexivity.
Qed.

(* statement order of load_globals and the constants of the callers *)
Theorem C13x_statement_order : lg_early_return = true /\ lg_stages = [1; 7; 2; 3; 4; 5; 6; 8; 9; 10; 11; 12; 2].
Proof. exact (conj lg_early_return_eq lg_stages_eq). Qed.
Theorem C13x_callers : fs_do_curve = false /\ prio_do_curve = false /\ save_do_curve = true.
Proof. repeat split. Qed.
Theorem C13x_find_islands_gets_subtracted_data : fs_islands_on_subtracted_img = true /\ fs_islands_bkg_zero = true.
Proof. split; reflexivity. Qed.
Theorem C13x_bane_box : forall s0 s1, mk_box_size s0 s1 = (5 * s0, 5 * s1).
Proof. reflexivity. Qed.
Theorem C13x_mask : forall m, region_of m = match m with MNone => None | MObj r => Some r | MFile true r => Some r
                                                        | MFile false _ => None end.
Proof. intros [|r|[|] r]; reflexivity. Qed.
Theorem C13x_aux_whole_image : forall n, lib_row_min n 0 1 = 0 /\ lib_row_max n 0 1 = n.
Proof. intro n. unfold lib_row_min, lib_row_max. split; [rewrite Z.mul_0_r; reflexivity | rewrite Z.mul_1_r; apply Z.div_1_r]. Qed.
(* what save_background_files writes is what get_aux_files looks for *)
Theorem C13x_saved_files_autoload : save_suffix_bkg = aux_suffix_bkg /\ save_suffix_rms = aux_suffix_rms /\
  aux_suffix_bkg = "_bkg.fits"%string /\ aux_suffix_rms = "_rms.fits"%string /\ aux_suffix_mask = ".mim"%string.
Proof. repeat split. Qed.

(* the stand-in for BANE satisfies the hypotheses of C13x_negation and C13x_shapes: they are not vacuous *)
Theorem C13x_hypotheses_consistent : (forall a, bane_fake (img_neg a) = (img_neg (fst (bane_fake a)), snd (bane_fake a))) /\
  (forall a, shape (fst (bane_fake a)) = shape a /\ shape (snd (bane_fake a)) = shape a).
Proof. exact (conj bane_fake_neg bane_fake_shape). Qed.

Definition ex_img : image := [[Some 8; Some 16; Some 0]; [Some (-8); None; Some 24]].
Definition ex_bkg : image := [[Some 8; Some 8; Some 8]; [Some 0; Some 0; Some 8]].
Definition ex_in (bkgin : option auxfile) (rms bkg : option Z) : inputs :=
  mkIn false [ex_img] None rms bkg None bkgin false MNone.
Example ex_file : fst (globals bane_fake (ex_in (Some (mkAux false ex_bkg [])) (Some 8) None)) =
  mkState (Some [[Some 0; Some 8; Some (-8)]; [Some (-8); None; Some 16]]) (Some ex_bkg)
          (Some [[Some 8; Some 8; Some 8]; [Some 8; Some 8; Some 8]]) None None (Some 0%nat).
Proof. vm_compute. reflexivity. Qed.
Example ex_bane : obs_state (globals bane_fake (ex_in None None None)) =
  (true, (Some [[Some 8; Some 0; Some (-8)]; [Some (-32); None; Some 32]],
          Some [[Some 0; Some 16; Some 8]; [Some 24; None; Some (-8)]],
          Some [[Some 32; Some 32; Some 32]; [Some 32; Some 32; Some 32]]), (None, None, Some 0%nat)).
Proof. vm_compute. reflexivity. Qed.
(* a background file of the wrong shape raises and leaves the raw image in the object; the repeated call with a good file then
   returns without subtracting anything *)
Example ex_sticks : map (fun r => (snd r, s_img (fst r)))
    (calls bane_fake fresh [ex_in (Some (mkAux false [[Some 1]] [])) (Some 8) None; ex_in (Some (mkAux false ex_bkg [])) (Some 8) None])
  = [(false, Some ex_img); (true, Some ex_img)].
Proof. vm_compute. reflexivity. Qed.

(* a cube read without cube_index: plane 0, and the object remembers index 0 *)
Example ex_cube : obs_state (globals bane_fake (mkIn true [ex_img; ex_bkg] None (Some 8) (Some 0) None None false MNone)) =
  (true, (Some ex_img, Some (const_like 0 ex_img), Some (const_like 8 ex_img)), (None, None, Some 0%nat)).
Proof. vm_compute. reflexivity. Qed.

Print Assumptions C13x_background_subtracted_once.
Print Assumptions C13x_map_sources.
Print Assumptions C13x_negation.
Print Assumptions C13x_shapes.
Print Assumptions C13x_failed_load_sticks.
Print Assumptions C13x_hypotheses_consistent.
Print Assumptions C13x_cube_default_first_plane.
