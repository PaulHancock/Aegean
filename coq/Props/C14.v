(* C14 - AeRes model images are the catalogue's Gaussians; subtraction closes the loop.
   Statements only; proofs in Proofs/AeResProofs.v.  The leaves (guards, window arithmetic with
   floor/ceil/int, the xo-1/yo-1 and FWHM2CC conversion, accumulation, mask comparisons,
   add/subtract, rename pairing) are regenerated from AeRes.py into Gen/AeRes.v on every run and
   `gauss` from fitting.py into Gen/Gauss.v.

   sky2pix_ellipse is the function argument `ell` (no hypothesis about it is used): for a catalogue
   row it returns (xo, yo, sx, sy, theta) = 1-based pixel centre, FWHM axes in pixels, pixel-frame
   angle in degrees.  That these are the catalogued sky position / axes / position angle seen
   through the WCS is property C16's.

   NOT proved here (validated by the harness on every run, see the evidence): float32/binary64
   round-off of the array, and the find -> subtract residual < 1e-3 peak, which depends on the
   optimiser (C01). *)
From Coq Require Import Reals ZArith Bool List String Lra Lia.
From Flocq Require Import Raux.
From Interval Require Import Tactic.
From Aegean Require Import Lib.RBase Gen.Gauss Gen.AeRes Model.AeRes Proofs.AeResProofs.
Import ListNotations.
Open Scope R_scope.

(* the model image of a catalogue is, pixel by pixel, the sum over its rows of the elliptical
   Gaussian with the catalogued peak, centred on the 0-based pixel position (xo-1, yo-1), with
   sigma = FWHM/(2 sqrt(2 ln 2)) along the pixel-frame axes and angle - for the rows that are
   accepted (centre on the image) and on the pixels of their evaluation window; 0 otherwise *)
Theorem C14_model_is_sum : forall (ell : R * R * R * R * R -> R * R * R * R * R) s0 s1 (rows : list row) i j,
  model_px s0 s1 (map (to_src ell) rows) i j =
  Rsum (map (fun r =>
    let '(xo, yo, sx, sy, theta) := ell (r_ra r, r_dec r, r_a r / 3600, r_b r / 3600, r_pa r) in
    if covers s0 s1 (mkSrc (r_peak r) (r_rms r) xo yo sx sy theta) i j
    then gauss (IZR i) (IZR j) (r_peak r) (xo - 1) (yo - 1) (sx * (1 / (2 * sqrt (2 * ln 2)))) (sy * (1 / (2 * sqrt (2 * ln 2)))) theta
    else 0) rows).
Proof. exact model_is_sum_full. Qed.

(* what `covers` is, without floor / ceil / int: the guard on the centre and the pixel window *)
Theorem C14_covers_spec : forall s0 s1 s i j,
  covers s0 s1 s i j = true <->
  (1 / 2 <= s_xo s < IZR s0 + 1 / 2 /\ 1 / 2 <= s_yo s < IZR s1 + 1 / 2) /\
  ((0 <= i < s0)%Z /\ s_xo s - xoff (s_sx s) (s_sy s) (s_theta s) < IZR i + 1 /\ IZR i < s_xo s + xoff (s_sx s) (s_sy s) (s_theta s)) /\
  ((0 <= j < s1)%Z /\ s_yo s - yoff (s_sx s) (s_sy s) (s_theta s) < IZR j + 1 /\ IZR j < s_yo s + yoff (s_sx s) (s_sy s) (s_theta s)).
Proof. exact covers_iff. Qed.

(* additive over catalogue subsets (over R) *)
Theorem C14_additive : forall s0 s1 c1 c2 i j,
  model_px s0 s1 (c1 ++ c2) i j = model_px s0 s1 c1 i j + model_px s0 s1 c2 i j.
Proof. exact additive. Qed.

(* evaluated out to 5 sigma - in fact out to 5 FWHM = k_window sigma, k_window = 11.774.. :
   (a) every image pixel inside the 5-sigma ellipse of a source is evaluated;
   (b) on every image pixel that is not evaluated the term is at most 1e-30 |peak| (= 2^-100 |peak|),
       far below the 1e-4 |peak| of the property;
   (c) so the image differs from the untruncated sum over the accepted sources by <= 1e-30 sum |peak| *)
Theorem C14_window_5sigma_inside : forall s0 s1 s i j, 0 < s_sx s -> 0 < s_sy s -> (0 <= i < s0)%Z -> (0 <= j < s1)%Z ->
  quad (IZR i - (s_xo s - 1)) (IZR j - (s_yo s - 1)) (s_sx s * FWHM2CC) (s_sy s * FWHM2CC) (s_theta s) <= 5 ^ 2 ->
  in_window s0 s1 s i j = true.
Proof. exact five_sigma_evaluated. Qed.
Theorem C14_window_5sigma : forall s0 s1 s i j, 0 < s_sx s -> 0 < s_sy s -> (0 <= i < s0)%Z -> (0 <= j < s1)%Z ->
  in_window s0 s1 s i j = false ->
  Rabs (term s i j) <= Rabs (s_peak s) * exp (- (k_window ^ 2) / 2).
Proof. exact window_bound. Qed.
Theorem C14_window_tail : 5 < k_window /\ exp (- (k_window ^ 2) / 2) <= 1 / 10 ^ 30.
Proof. exact (conj k_window_ge_5 window_tail). Qed.
Theorem C14_truncation : forall s0 s1 cat i j, Forall regular cat -> (0 <= i < s0)%Z -> (0 <= j < s1)%Z ->
  Rabs (model_px s0 s1 cat i j - Rsum (map (fun s => full_term s0 s1 s i j) cat))
  <= exp (- (k_window ^ 2) / 2) * Rsum (map (fun s => Rabs (s_peak s)) cat).
Proof. exact truncation_error. Qed.

(* the generated guard accepts exactly the sources whose centre pixel (the pixel that contains the
   0-based centre (xo-1, yo-1); pixel k covers [k-1/2, k+1/2)) is a pixel of the image - first and
   last row / column included - and a rejected source changes no pixel (no error) *)
Theorem C14_offimage_skipped : forall s0 s1 s,
  accepted s0 s1 s = true <-> (0 <= centre_pixel (s_xo s) < s0)%Z /\ (0 <= centre_pixel (s_yo s) < s1)%Z.
Proof. exact offimage_skipped. Qed.
Theorem C14_offimage_ignored : forall s0 s1 s cat i j, accepted s0 s1 s = false ->
  model_px s0 s1 (s :: cat) i j = model_px s0 s1 cat i j.
Proof. exact rejected_ignored. Qed.

(* adding then subtracting (or subtracting then adding) a model restores the image - over R;
   for float32 data this is validated, not proved *)
Theorem C14_add_sub_inverse : forall d m,
  residual_px false false (residual_px true false d m) m = d /\ residual_px true false (residual_px false false d m) m = d.
Proof. exact (fun d m => conj (add_sub_inverse d m) (sub_add_inverse d m)). Qed.
(* subtracting the model of a catalogue from the image that is the sum of its contributions leaves 0 *)
Theorem C14_subtract_closes_partial : forall s0 s1 cat i j,
  residual false None s0 s1 cat (Rsum (map (fun s => contrib s0 s1 s i j) cat)) i j = Some 0.
Proof. exact subtract_own_model. Qed.

(* mask mode blanks exactly the pixels where the model of some accepted source reaches its threshold
   (|frac * peak| or sigma * local_rms), for positive and negative peaks alike.  The full statement
   over the whole image needs the threshold to be above the truncation level 1e-30 |peak| (`resolved`);
   without that hypothesis the statement holds with "on the pixels of its window" added *)
Theorem C14_mask_exact : forall s0 s1 mode cat i j, Forall (resolved mode) cat -> (0 <= i < s0)%Z -> (0 <= j < s1)%Z ->
  (blank_px s0 s1 mode cat i j = true <->
   exists s, In s cat /\ accepted s0 s1 s = true /\ threshold mode s <= Rabs (term s i j)).
Proof. exact mask_exact. Qed.
Theorem C14_mask_exact_window : forall s0 s1 mode cat i j,
  blank_px s0 s1 mode cat i j = true <-> exists s, In s cat /\ covers_P s0 s1 s i j /\ hit_P mode s i j.
Proof. exact mask_exact_window. Qed.
(* ... and the residual written in mask mode is nan there and the data elsewhere *)
Theorem C14_mask_residual : forall s0 s1 add mode cat d i j,
  residual add (Some mode) s0 s1 cat d i j = if blank_px s0 s1 mode cat i j then None else Some d.
Proof. exact mask_residual. Qed.

(* column renaming (load_sources as it is in /repo since its repair: copy the requested columns, remove every column
   named like a requested or a catalogue column, add the copies under the catalogue names) - FULL
   statement: for every table that has the six requested columns - whatever other columns it has,
   including columns already named like a catalogue field (peak_col = int_flux next to peak_flux) and
   swapped names (a_col = b, b_col = a) - loading succeeds, the catalogue field of each parameter holds
   the user's column, every column that is neither requested nor a catalogue name is kept, and
   column names stay unique.  The sequential rename_column that /repo had before violated this:
   Refuted/C14_rename.v (regression record). *)
Theorem C14_rename_pairs :
  combine rename_from rename_to =
  [("ra_col", "ra"); ("dec_col", "dec"); ("peak_col", "peak_flux"); ("a_col", "a"); ("b_col", "b"); ("pa_col", "pa")]%string.
Proof. reflexivity. Qed.
Theorem C14_rename : forall V (t : table V) colmap,
  (forall p, In p rename_from -> has V t (colmap p) = true) ->
  exists t', load_table V colmap t = Some t'
    /\ (forall p f, In (p, f) (combine rename_from rename_to) -> col V t' f = col V t (colmap p))
    /\ (forall c, ~ In c (map colmap rename_from ++ rename_to) -> col V t' c = col V t c)
    /\ (NoDup (map fst t) -> NoDup (map fst t')).
Proof. exact load_full. Qed.
(* a missing requested column is reported (None), never a silently wrong catalogue *)
Theorem C14_rename_missing : forall V (t : table V) colmap p,
  In p rename_from -> has V t (colmap p) = false -> load_table V colmap t = None.
Proof. exact load_missing. Qed.

Definition ex_src : psrc := mkSrc 2 (1 / 10) 6 7 3 2 30.
Example C14_example_accepted : accepted 12 14 ex_src = true.
Proof. apply accepted_iff. unfold accepted_P, ex_src; cbn [s_xo s_yo]. lra. Qed.
Example C14_example_last_row_accepted : accepted 12 14 (mkSrc 2 0 (12 + 1 / 4) 1 3 2 30) = true
                                        /\ accepted 12 14 (mkSrc 2 0 (12 + 1 / 2) 1 3 2 30) = false.
Proof.
  split; [apply accepted_iff; unfold accepted_P; cbn [s_xo s_yo]; lra|].
  apply not_true_is_false. rewrite accepted_iff. unfold accepted_P; cbn [s_xo s_yo]. lra.
Qed.
Example C14_example_covers : covers 12 14 ex_src 5 6 = true.
Proof.
  apply covers_iff. unfold covers_P, accepted_P, window_P, ex_src; cbn [s_xo s_yo s_sx s_sy s_theta].
  repeat split; try lia; try lra; unfold xoff, yoff, rad; interval.
Qed.
Example C14_example_regular : Forall regular [ex_src].
Proof. repeat constructor; unfold ex_src; cbn [s_sx s_sy]; lra. Qed.

(* the two inputs of Refuted/C14_rename.v: an Aegean-like table read with peak_col = int_flux, and swapped a / b *)
Definition ex_table : table nat := [("ra", 1%nat); ("dec", 2%nat); ("peak_flux", 3%nat); ("int_flux", 4%nat); ("a", 5%nat); ("b", 6%nat); ("pa", 7%nat); ("local_rms", 8%nat)]%string.
Example C14_example_collision :
  load_table nat (fun p => if String.eqb p "peak_col" then "int_flux" else default_colmap p)%string ex_table
  = Some [("local_rms", 8%nat); ("ra", 1%nat); ("dec", 2%nat); ("peak_flux", 4%nat); ("a", 5%nat); ("b", 6%nat); ("pa", 7%nat)]%string.
Proof. reflexivity. Qed.
Example C14_example_swap :
  load_table nat (fun p => if String.eqb p "a_col" then "b" else if String.eqb p "b_col" then "a" else default_colmap p)%string ex_table
  = Some [("int_flux", 4%nat); ("local_rms", 8%nat); ("ra", 1%nat); ("dec", 2%nat); ("peak_flux", 3%nat); ("a", 6%nat); ("b", 5%nat); ("pa", 7%nat)]%string.
Proof. reflexivity. Qed.

Print Assumptions C14_model_is_sum.
Print Assumptions C14_covers_spec.
Print Assumptions C14_additive.
Print Assumptions C14_window_5sigma_inside.
Print Assumptions C14_window_5sigma.
Print Assumptions C14_window_tail.
Print Assumptions C14_truncation.
Print Assumptions C14_offimage_skipped.
Print Assumptions C14_offimage_ignored.
Print Assumptions C14_add_sub_inverse.
Print Assumptions C14_subtract_closes_partial.
Print Assumptions C14_mask_exact.
Print Assumptions C14_mask_exact_window.
Print Assumptions C14_mask_residual.
Print Assumptions C14_rename_pairs.
Print Assumptions C14_rename.
Print Assumptions C14_rename_missing.
