(* C16 - Pixel <-> sky conversion of positions, vectors, ellipses: inverse and correct.
   Statements only.  The model (Model/WcsHelper.v) is WCSHelper.pix2sky / sky2pix with the GENERATED slot order and
   origin argument, and the GENERATED whole functions sky2pix_vec / pix2sky_vec / sky2pix_ellipse / pix2sky_ellipse
   (Gen/WcsHelper.v, regenerated from AegeanTools/wcs_helpers.py on every run) over gcd / bear / translate of
   Gen/Sphere.v.  Lemmas: Proofs/WcsHelperProofs.v (on Lib/Sphere.v).

   wcslib is NOT axiomatised.  P (FITS pixel -> sky) and S (sky -> FITS pixel) are universally quantified functions on
   FITS coordinates (p1 = axis 1 = column, p2 = axis 2 = row, 1-based); every theorem is an implication from
       SP : S (P p) = p             on the pixel domain Dp
       PS : P (S s) = s (RA mod 360) on the sky domain Ds
   and the harness validates both on real astropy WCS objects on every run, and validates P against an independent
   implementation of the FITS zenithal projections ("agrees with the FITS WCS standard" is decided there, by execution).
   The theorems are instantiated at the generated leaves: a tree that drops the x/y swap or passes origin 0 makes
   `exact` ill-typed.

   NOT theorems (decided by execution in tools/harness/c16.py on the real code): the tolerances 1e-6 pixel, 1e-3
   relative, 0.01 deg in binary64 with the real wcslib; the minor axis of an ellipse for a general (non-conformal,
   non-linear) projection - see C16_ellipse_roundtrip_partial. *)
From Coq Require Import Reals ZArith Lra.
From Aegean Require Import Lib.RBase Gen.Sphere Lib.Sphere Gen.WcsHelper Model.WcsHelper Proofs.WcsHelperProofs Proofs.WcsHelperExamples.
Open Scope R_scope.

(* a pixel (x, y) = (row, column) is sent to the FITS position (axis 1 = y, axis 2 = x) with origin 1, and sky2pix
   inverts pix2sky on the image *)
Theorem C16_point_roundtrip : forall (P S : pt -> pt) (Dp : pt -> Prop),
  (forall p, Dp p -> S (P p) = p) ->
  forall x y, m_pix2sky P (x, y) = P (y, x) /\ (Dp (y, x) -> m_sky2pix S (m_pix2sky P (x, y)) = (x, y)).
Proof. exact point_roundtrip. Qed.

(* sky -> pixel -> sky of a vector returns the origin (RA modulo 360), the length and the position angle EXACTLY, for
   0 < r < 180 with both ends away from the poles and inside the region where the WCS is invertible *)
Theorem C16_vec_roundtrip : forall (P S : pt -> pt) (Ds : pt -> Prop),
  (forall s, Ds s -> same_sky (P (S s)) s) ->
  forall (pos : pt) (r pa : R),
  Ds pos -> Ds (translate (fst pos) (snd pos) r pa) ->
  -90 < snd pos < 90 -> -90 < snd (translate (fst pos) (snd pos) r pa) < 90 -> 0 < r < 180 ->
  let '(x, y, l, th) := m_sky2pix_vec P S pos r pa in
  let '(ra', dec', r', pa') := m_pix2sky_vec P S (x, y) l th in
  same_sky (ra', dec') pos /\ r' = r /\ (-180 < pa <= 180 -> pa' = pa).
Proof. exact vec_roundtrip. Qed.

(* ellipse: centre, semi-major axis and position angle exactly (no assumption on the projection) *)
Theorem C16_ellipse_major_pa : forall (P S : pt -> pt) (Ds : pt -> Prop),
  (forall s, Ds s -> same_sky (P (S s)) s) ->
  forall (pos : pt) (a b pa : R),
  Ds pos -> Ds (translate (fst pos) (snd pos) a pa) ->
  -90 < snd pos < 90 -> -90 < snd (translate (fst pos) (snd pos) a pa) < 90 -> 0 < a < 180 ->
  let '(x, y, sx, sy, th) := m_sky2pix_ellipse P S pos a b pa in
  let '(ra', dec', a', b', pa') := m_pix2sky_ellipse P S (x, y) sx sy th in
  same_sky (ra', dec') pos /\ a' = a /\ (-180 < pa <= 180 -> pa' = pa).
Proof. exact ellipse_major_pa. Qed.

(* what the non-orthogonality correction of sky2pix_ellipse computes: with X, A, B the pixels of the centre, of the end
   of the major axis (translate pos a pa) and of the end of the minor axis (translate pos b (pa - 90)), the returned
   minor axis is the component of B - X perpendicular to the major axis A - X (not |B - X|) *)
Theorem C16_ellipse_minor_projection : forall (P S : pt -> pt) (Ds : pt -> Prop),
  (forall s, Ds s -> same_sky (P (S s)) s) ->
  forall (pos : pt) (a b pa : R),
  Ds pos -> Ds (translate (fst pos) (snd pos) a pa) ->
  -90 < snd pos < 90 -> -90 < snd (translate (fst pos) (snd pos) a pa) < 90 -> 0 < a < 180 ->
  let X := m_sky2pix S pos in
  let A := m_sky2pix S (translate (fst pos) (snd pos) a pa) in
  let B := m_sky2pix S (translate (fst pos) (snd pos) b (pa - 90)) in
  let '(x, y, sx, sy, th) := m_sky2pix_ellipse P S pos a b pa in
  (x, y) = X /\ (x + sx * cos (rad th), y + sx * sin (rad th)) = A /\ 0 < sx /\
  sy = Rabs ((snd B - snd X) * cos (rad th) - (fst B - fst X) * sin (rad th)).
Proof. exact ellipse_pixel_facts. Qed.

(* FULL statement wanted by the property: for every supported projection the minor axis returns within 1e-3 relative.
   Over an abstract WCS that is not a theorem (it bounds the non-linearity of the projection over the ellipse).
   PROVED: the minor axis returns EXACTLY when, at this point,
     (conformality)  the pixel images of the two sky-perpendicular axes are perpendicular, and
     (odd linearity) the reflection of the minor-axis end pixel through the centre pixel is the pixel of the reflected
                     sky point translate pos b (pa + 90)
   (pix2sky_ellipse queries the pixel on the OTHER side of the centre when the pixel frame has the usual handedness).
   MISSING: a bound in terms of the defects of these two hypotheses; the harness measures both defects on real WCS and
   decides the 1e-3 / 0.01 deg clause by execution. *)
Theorem C16_ellipse_roundtrip_partial : forall (P S : pt -> pt) (Ds : pt -> Prop),
  (forall s, Ds s -> same_sky (P (S s)) s) ->
  forall (pos : pt) (a b pa : R),
  let qa := translate (fst pos) (snd pos) a pa in
  let qb := translate (fst pos) (snd pos) b (pa - 90) in
  let qc := translate (fst pos) (snd pos) b (pa + 90) in
  let X := m_sky2pix S pos in let A := m_sky2pix S qa in let B := m_sky2pix S qb in
  Ds pos -> Ds qa -> -90 < snd pos < 90 -> -90 < snd qa < 90 -> 0 < a < 180 ->
  Ds qb -> -90 < snd qb < 90 -> -90 < snd qc < 90 -> 0 < b < 180 -> -180 < pa <= 180 ->
  (fst B - fst X) * (fst A - fst X) + (snd B - snd X) * (snd A - snd X) = 0 ->
  same_sky (m_pix2sky P (2 * fst X - fst B, 2 * snd X - snd B)) qc ->
  let '(x, y, sx, sy, th) := m_sky2pix_ellipse P S pos a b pa in
  let '(ra', dec', a', b', pa') := m_pix2sky_ellipse P S (x, y) sx sy th in
  same_sky (ra', dec') pos /\ a' = a /\ b' = b /\ pa' = pa.
Proof. exact ellipse_roundtrip. Qed.

(* lengths are great-circle lengths: the length returned by pix2sky_vec IS gcd of the two mapped end points, i.e. the
   angle in [0, 180] between their unit vectors; the angle is the bearing at the first one *)
Theorem C16_lengths_great_circle : forall (P S : pt -> pt) (pixel : pt) (r theta : R),
  let s1 := m_pix2sky P pixel in
  let s2 := m_pix2sky P (fst pixel + r * cos (rad theta), snd pixel + r * sin (rad theta)) in
  let '(ra, dec, l, pa) := m_pix2sky_vec P S pixel r theta in
  (ra, dec) = s1 /\ l = gcd (fst s1) (snd s1) (fst s2) (snd s2) /\
  cos (rad l) = dot (uvec (fst s1) (snd s1)) (uvec (fst s2) (snd s2)) /\ 0 <= l <= 180 /\
  pa = bear (fst s1) (snd s1) (fst s2) (snd s2).
Proof. intros P S. exact (lengths_great_circle (m_pix2sky P) (m_sky2pix S)). Qed.
(* the same for both axes of pix2sky_ellipse (the minor axis carries the correction factor |cos defect| <= 1) *)
Theorem C16_ellipse_lengths_great_circle : forall (P S : pt -> pt) (pixel : pt) (sx sy theta : R),
  let s0 := m_pix2sky P pixel in
  let s1 := m_pix2sky P (fst pixel + sx * cos (rad theta), snd pixel + sx * sin (rad theta)) in
  let s2 := m_pix2sky P (fst pixel + sy * cos (rad (theta - 90)), snd pixel + sy * sin (rad (theta - 90))) in
  let '(ra, dec, major, minor, pa) := m_pix2sky_ellipse P S pixel sx sy theta in
  major = gcd (fst s0) (snd s0) (fst s1) (snd s1) /\
  cos (rad major) = dot (uvec (fst s0) (snd s0)) (uvec (fst s1) (snd s1)) /\
  pa = bear (fst s0) (snd s0) (fst s1) (snd s1) /\
  minor = gcd (fst s0) (snd s0) (fst s2) (snd s2) *
          Rabs (cos (rad (pa - (bear (fst s0) (snd s0) (fst s2) (snd s2) - 90)))) /\
  0 <= minor <= gcd (fst s0) (snd s0) (fst s2) (snd s2).
Proof. intros P S. exact (ellipse_lengths_great_circle (m_pix2sky P) (m_sky2pix S)). Qed.

(* angles are measured East of North: the bearing (= the angle returned by pix2sky_vec / pix2sky_ellipse, and by
   C16_vec_roundtrip the angle consumed by sky2pix_vec) of a point displaced due north is 0, due south 180, towards
   increasing RA positive (exactly +90 on the equator), towards decreasing RA negative (exactly -90 on the equator) *)
Theorem C16_pa_east_of_north : forall ra dec d, 0 < d < 180 ->
  bear ra dec ra (dec + d) = 0 /\ bear ra dec ra (dec - d) = 180 /\
  (-90 < dec < 90 ->
   0 < bear ra dec (ra + d) dec < 180 /\ -180 < bear ra dec (ra - d) dec < 0 /\
   (dec = 0 -> bear ra dec (ra + d) dec = 90 /\ bear ra dec (ra - d) dec = -90)).
Proof. exact pa_east_of_north. Qed.

(* non-vacuity.  exP / exS (Proofs/WcsHelperExamples.v): a linear WCS with 0.01 degree pixels, reference pixel (5, 5) at (10, 0).
   It is invertible, and concrete inputs satisfy every hypothesis of the round-trip theorems (for the ellipse also the
   conformality and odd-linearity hypotheses of C16_ellipse_roundtrip_partial). *)
Example C16_wcs_exists : (forall p, exS (exP p) = p) /\ (forall s, same_sky (exP (exS s)) s).
Proof. split; [exact exSP | exact exPS]. Qed.
Example C16_vec_hypotheses_hold :
  (forall s, True -> same_sky (exP (exS s)) s) /\
  let pos := (10, 0) in let r := 1 in let pa := 90 in
  -90 < snd pos < 90 /\ -90 < snd (translate (fst pos) (snd pos) r pa) < 90 /\ 0 < r < 180 /\ -180 < pa <= 180.
Proof. exact example_vec. Qed.
Example C16_ellipse_hypotheses_hold :
  let pos := (10, 0) in let a := 2 in let b := 1 in let pa := 0 in
  let qa := translate (fst pos) (snd pos) a pa in
  let qb := translate (fst pos) (snd pos) b (pa - 90) in
  let qc := translate (fst pos) (snd pos) b (pa + 90) in
  let X := m_sky2pix exS pos in let A := m_sky2pix exS qa in let B := m_sky2pix exS qb in
  -90 < snd pos < 90 /\ -90 < snd qa < 90 /\ 0 < a < 180 /\
  -90 < snd qb < 90 /\ -90 < snd qc < 90 /\ 0 < b < 180 /\ -180 < pa <= 180 /\
  (fst B - fst X) * (fst A - fst X) + (snd B - snd X) * (snd A - snd X) = 0 /\
  same_sky (m_pix2sky exP (2 * fst X - fst B, 2 * snd X - snd B)) qc.
Proof. exact example_ellipse. Qed.
(* the east-of-north statement at a concrete point: one degree towards increasing RA on the equator is at +90 *)
Example C16_east_is_plus_90 : bear 10 0 11 0 = 90.
Proof.
  replace 11 with (10 + 1) by lra.
  destruct (C16_pa_east_of_north 10 0 1 ltac:(lra)) as [_ [_ H]]. destruct H as [_ [_ H]]; [lra|]. apply H. reflexivity.
Qed.

Print Assumptions C16_point_roundtrip.
Print Assumptions C16_vec_roundtrip.
Print Assumptions C16_ellipse_roundtrip_partial.
