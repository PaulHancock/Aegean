(* C18 - Catalogues survive a write/read round trip in every readable format.
   Statements; each proof is `exact <lemma>` or a few lines from the lemmas of Proofs/CatalogProofs.v (classification,
   file names, tables), Proofs/CatalogRoundtrip.v (write then read) and Proofs/CatalogSplitext.v (the extension of
   the written file).  The model is Model/Catalog.v; its leaves in Gen/Catalog.v are regenerated from
   AegeanTools/catalogs.py and models.py on every run.

   Class codes: 2 ComponentSource, 1 IslandSource, 0 SimpleSource, anything else = not a source.
   F is the (abstract) type of floats: Aegean's code never looks inside one on these paths.
   The file formats are astropy's / sqlite's: they enter C18_roundtrip* as hypotheses that the
   harness validates with real files on every run. *)
From Coq Require Import ZArith Bool List String Lia Permutation.
From Aegean Require Import Gen.Catalog Model.Catalog Proofs.CatalogProofs Proofs.CatalogRoundtrip Proofs.CatalogSplitext.
Import ListNotations.
Open Scope string_scope.
Open Scope Z_scope.

(* each file gets exactly the sources of its kind, in the original relative order (filter); nothing is
   written for an absent kind; together the three lists are a permutation of the catalogue; the sqlite
   writer makes one table per non-empty kind with the `names` columns and one unmodified row per source *)
Theorem C18_split_exact : forall (F : Type) (eqi : F -> Z -> bool) (filename : string) (cat : list (source F)),
  let comps := filter (is_class F 2) cat in
  let isles := filter (is_class F 1) cat in
  let simps := filter (is_class F 0) cat in
  classify F cat = [comps; isles; simps] /\
  write_files F filename cat =
    (file_if F (out_name "_comp" filename) comps ++ file_if F (out_name "_isle" filename) isles ++
     file_if F (out_name "_simp" filename) simps)%list /\
  db_tables F eqi cat =
    (db_if F "components" 2 comps ++ db_if F "islands" 1 isles ++ db_if F "simples" 0 simps)%list /\
  (Forall (fun s => 0 <= s_class s <= 2) cat -> Permutation (comps ++ isles ++ simps)%list cat).
Proof.
  intros F eqi filename cat. cbv zeta.
  split; [exact (classify_spec F cat)|split; [exact (write_files_spec F filename cat)|
  split; [exact (db_tables_spec F eqi cat)|exact (partition3_perm F cat)]]].
Qed.

(* file names: root ++ suffix ++ ext where (root, ext) = splitext filename; distinct kinds get distinct
   names; the written name splits into (root ++ suffix, ext) again, so its extension - from which load_table
   chooses the reader - is the one save_catalog chose the writer from *)
Theorem C18_names : forall filename root ext, splitext filename = (root, ext) ->
  filename = root ++ ext /\
  (forall sfx, out_name sfx filename = root ++ sfx ++ ext) /\
  (forall s1 s2, In s1 suffixes -> In s2 suffixes -> out_name s1 filename = out_name s2 filename -> s1 = s2) /\
  (forall sfx, In sfx suffixes ->
     splitext (out_name sfx filename) = (root ++ sfx, ext) /\
     forall lowered, extension_of lowered (out_name sfx filename) = extension_of lowered filename).
Proof.
  intros filename root ext H.
  split; [exact (splitext_app filename root ext H)|split;
  [exact (fun sfx => out_name_spec sfx filename root ext H)|split; [exact (out_name_injective filename)|
   exact (fun sfx => out_name_splitext filename root ext sfx H)]]].
Qed.

(* the written columns are exactly `names` of the kind of the first source, in order, renamed when galactic,
   with the prefix; they are pairwise distinct; every column has one cell per source *)
Theorem C18_columns : forall (F : Type) (pre : option string) (s0 : source F) (rest : list (source F)),
  map fst (build_table F pre (s0 :: rest)) = map (col_name pre (s_galactic s0)) (names_of_class (s_class s0)) /\
  NoDup (map (col_name pre (s_galactic s0)) (names_of_class (s_class s0))) /\
  (forall n col, In (n, col) (build_table F pre (s0 :: rest)) -> List.length col = List.length (s0 :: rest)).
Proof.
  intros F pre s0 rest.
  split; [exact (build_table_names F pre s0 rest)|split;
  [exact (col_names_nodup pre (s_galactic s0) (s_class s0))|exact (build_table_lengths F pre (s0 :: rest))]].
Qed.

(* a FITS 'nA' column is at least 1 wide (astropy rejects 0A) and wide enough for every entry
   (columns have one dtype: numpy) *)
Theorem C18_string_width : forall (F : Type) (name : string) (col : list (cell F)) (w : nat),
  homogeneous F col -> fits_format F name col = FA w ->
  (1 <= w)%nat /\ forall s, In (CStr s) col -> (String.length s <= w)%nat.
Proof. exact string_width. Qed.

(* any table format whose reader returns the written cells as cell_rt: floats through rnd (identity for
   csv / tab / tex / VOTable), NaN masked when mask_nan (VOTable), '' masked when mask_empty (csv, tab, tex).
   load (read (write cat)) gives as many sources, of the same class; attribute n holds post (cell_rt v):
   the cell that was read, or - the loader skips masked cells - the class default.  No prefix, equatorial names. *)
Theorem C18_roundtrip : forall (F : Type) (nan : F) (is_nan : F -> bool) (rnd : F -> F) (mask_nan mask_empty : bool)
    (dom : table F -> Prop) (file_rt : table F -> table F),
  (forall t, dom t -> file_rt t = map (fun '(n, col) => (n, map (cell_rt F is_nan rnd mask_nan mask_empty) col)) t) ->
  forall (c : Z) (uuids : nat -> string) (cat : list (source F)),
  cat <> [] ->
  (forall s, In s cat -> s_class s = c) ->
  (forall s, In s cat -> s_galactic s = false) ->
  (forall s, In s cat -> is_masked F (cell_rt F is_nan rnd mask_nan mask_empty (getattr F s "uuid")) = false) ->
  dom (build_table F None cat) ->
  let loaded := table_to_source_list F nan c uuids (file_rt (build_table F None cat)) in
  List.length loaded = List.length cat /\
  (forall s, In s loaded -> s_class s = c) /\
  map (as_list F) loaded =
    map (fun s => map (fun n => post F nan c n (cell_rt F is_nan rnd mask_nan mask_empty (getattr F s n)))
                      (names_of_class c)) cat.
Proof. exact roundtrip_generic. Qed.

(* ... and when every NaN sits in an attribute that starts as NaN and every '' in one that starts as ''
   (restorable; C18_restorable: all float attributes of `names`, ra_str, dec_str) the sources come back
   cell by cell: NaN as NaN, '' as '', other floats through rnd, ints and strings unchanged *)
Theorem C18_roundtrip_restored : forall (F : Type) (nan : F) (is_nan : F -> bool) (rnd : F -> F)
    (mask_nan mask_empty : bool) (dom : table F -> Prop) (file_rt : table F -> table F),
  (forall t, dom t -> file_rt t = map (fun '(n, col) => (n, map (cell_rt F is_nan rnd mask_nan mask_empty) col)) t) ->
  forall (c : Z) (uuids : nat -> string) (cat : list (source F)),
  cat <> [] ->
  (forall s, In s cat -> s_class s = c) ->
  (forall s, In s cat -> s_galactic s = false) ->
  (forall s, In s cat -> is_masked F (cell_rt F is_nan rnd mask_nan mask_empty (getattr F s "uuid")) = false) ->
  (forall s n, In s cat -> In n (names_of_class c) -> restorable F nan is_nan c n (getattr F s n)) ->
  dom (build_table F None cat) ->
  map (as_list F) (table_to_source_list F nan c uuids (file_rt (build_table F None cat))) =
  map (fun s => map (expected F nan is_nan rnd mask_nan) (as_list F s)) cat.
Proof. exact roundtrip_restored. Qed.

Theorem C18_restorable : forall (F : Type) (nan : F) (is_nan : F -> bool) (c : Z) (n : string),
  (c = 0 \/ c = 1 \/ c = 2 -> In n (names_of_class c) -> ~ In n nonfloat_attrs ->
     forall f, restorable F nan is_nan c n (CFlt f)) /\
  (c = 1 \/ c = 2 -> n = "ra_str" \/ n = "dec_str" -> forall s, restorable F nan is_nan c n (CStr s)).
Proof.
  intros F nan is_nan c n.
  split; [exact (fun Hc Hn Hf f => restorable_float F nan is_nan c n f Hc Hn Hf)|
          exact (fun Hc Hn s => restorable_coord F nan is_nan c n s Hc Hn)].
Qed.

(* FITS: Aegean's column formats + the library storing each column in its format (strings cut to the width,
   'E' = rnd, an int in an 'E' column becomes a float) and masking NaN and '' on reading: strings and integers
   come back unchanged (no truncation, by C18_string_width), floats rounded, NaN as NaN and '' as '' (skip rule),
   the int -1 of an err_ column as float *)
Theorem C18_roundtrip_fits : forall (F : Type) (nan : F) (is_nan : F -> bool) (rnd : F -> F) (of_int : Z -> F)
    (fdom : list (string * fitsfmt * list (cell F)) -> Prop)
    (fits_rt : list (string * fitsfmt * list (cell F)) -> table F),
  (forall cols, fdom cols ->
     fits_rt cols = map (fun '(n, f, col) => (n, map (fits_cell F is_nan rnd of_int f) col)) cols) ->
  forall (c : Z) (uuids : nat -> string) (cat : list (source F)),
  cat <> [] ->
  (forall s, In s cat -> s_class s = c) ->
  (forall s, In s cat -> s_galactic s = false) ->
  (forall n, In n (names_of_class c) -> homogeneous F (map (fun s => getattr F s n) cat)) ->
  (forall s, In s cat -> exists u, getattr F s "uuid" = CStr u /\ is_empty u = false) ->
  (forall s n, In s cat -> In n (names_of_class c) -> restorable F nan is_nan c n (getattr F s n)) ->
  fdom (fits_columns F (build_table F None cat)) ->
  let loaded := table_to_source_list F nan c uuids (fits_rt (fits_columns F (build_table F None cat))) in
  List.length loaded = List.length cat /\
  (forall s, In s loaded -> s_class s = c) /\
  map (as_list F) loaded =
    map (fun s => map (fun n => fits_expected F nan is_nan rnd of_int n (getattr F s n)) (names_of_class c)) cat.
Proof. exact roundtrip_fits. Qed.

(* -1 and NaN: Aegean's own code hands every cell on unchanged.  (a) the table cell of row i, column n is
   getattr (source i) n; (b) a NaN that the reader masks (VOTable, FITS) is restored by the skip rule: the
   attribute keeps the class default NaN, for every float attribute of every class; every other float -
   the -1 marker included - is what the reader returned; (c) with a value-exact reader that masks no NaN
   (csv, tab, tex) `expected` is the identity: every cell comes back; (d) writeDB applies nulls to rows
   (lists), which never equal -1, so a row goes to sqlite unmodified although nulls would turn a -1 CELL into None *)
Theorem C18_markers : forall (F : Type) (nan : F) (is_nan : F -> bool) (eqi : F -> Z -> bool),
  (forall pre (s0 : source F) rest n, In n (names_of_class (s_class s0)) ->
     In (col_name pre (s_galactic s0) n, map (fun s => getattr F s n) (s0 :: rest)) (build_table F pre (s0 :: rest))) /\
  (forall rnd mask_empty c n f, c = 0 \/ c = 1 \/ c = 2 -> In n (names_of_class c) -> ~ In n nonfloat_attrs ->
     post F nan c n (cell_rt F is_nan rnd true mask_empty (CFlt f)) = if is_nan f then CFlt nan else CFlt (rnd f)) /\
  (forall c : cell F, expected F nan is_nan (fun x => x) false c = c) /\
  (forall s : source F, db_row F eqi s = map Some (as_list F s)) /\
  (forall r : list (cell F), nulls F eqi (VRow r) = VRow r) /\
  nulls F eqi (VCell (CInt (-1))) = VNone.
Proof.
  intros F nan is_nan eqi.
  split; [exact (build_table_cells F)|split; [|split; [exact (expected_id F nan is_nan)|split;
  [exact (db_row_spec F eqi)|split; [exact (nulls_row F eqi)|reflexivity]]]]].
  intros rnd mask_empty c n f Hc Hn Hf.
  exact (post_cell_rt F nan is_nan rnd true mask_empty c n (CFlt f) (restorable_float F nan is_nan c n f Hc Hn Hf)).
Qed.

(* writer / reader per extension: every extension load_table accepts is written by the table writer in the
   format of that name and read by the matching astropy reader (0 ascii.read, 1 Table.read) *)
Theorem C18_dispatch :
  map (fun e => (writer_code (save_writer e), load_reader e)) ["csv"; "tab"; "tex"; "vo"; "vot"; "xml"; "fits"] =
  [((3, "csv"), Some 0); ((3, "tab"), Some 0); ((3, "latex"), Some 0);
   ((0, "vo"), Some 1); ((0, "vot"), Some 1); ((0, "xml"), Some 1); ((2, "fits"), Some 1)].
Proof. exact leaf_dispatch. Qed.

Example C18_example_names : out_name "_isle" "d.ir/sub/x.y.fits" = "d.ir/sub/x.y_isle.fits"
  /\ out_name "_comp" ".csv" = ".csv_comp".
Proof. split; reflexivity. Qed.

Example C18_example_split :
  map (fun '(n, l) => (n, map (@s_class unit) l))
      (write_files unit "a.csv" [ {| s_class := 0; s_galactic := false; s_attr := [] |};
                                  {| s_class := 2; s_galactic := false; s_attr := [] |};
                                  {| s_class := 7; s_galactic := false; s_attr := [] |};
                                  {| s_class := 2; s_galactic := false; s_attr := [] |} ]) =
  [("a_comp.csv", [2; 2]); ("a_simp.csv", [0])].
Proof. reflexivity. Qed.

Example C18_example_width :
  fits_format unit "ra_str" [CStr "1:2:3"; CStr "12:34:56.78"] = FA 11
  /\ fits_format unit "ra_str" [CStr ""; CStr ""] = FA 1
  /\ fits_format unit "err_ra" [CInt (-1); CInt (-1)] = FE
  /\ fits_format unit "island" [CInt 3; CInt 4] = FJ.
Proof. rewrite !leaf_fits_format. repeat split. Qed.

Print Assumptions C18_split_exact.
Print Assumptions C18_names.
Print Assumptions C18_columns.
Print Assumptions C18_string_width.
Print Assumptions C18_roundtrip.
Print Assumptions C18_roundtrip_restored.
Print Assumptions C18_restorable.
Print Assumptions C18_roundtrip_fits.
Print Assumptions C18_markers.
Print Assumptions C18_dispatch.
