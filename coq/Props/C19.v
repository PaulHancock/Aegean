(* C19 - Regrouping = eps-connected partition of the catalogue, independent of row order.
   Statements; each proof is `exact <lemma>` or a few lines from the lemmas of Proofs/ClusterProofs.v (Z, lists;
   axiom-free) and Proofs/ClusterRProofs.v (Reals); leaves regenerated into Gen/ClusterShape.v and Gen/ClusterR.v
   from AegeanTools/cluster.py, CLI/AeReg.py and source_finder.py on every run.

   sklearn's DBSCAN is not modelled: [dbscan] is a variable (the labels_ array returned for a catalogue)
   and [dbscan_ok link dbscan] - labels_ = index of the connectivity class of the relation [link], classes
   numbered by their first row - is a hypothesis of the theorems that depend on it; the harness validates
   it against sklearn on every case. *)
From Coq Require Import ZArith Bool List Relations Permutation Reals.
From Aegean Require Import Gen.ClusterShape Gen.ClusterR Lib.RBase Lib.Graph Model.Cluster
  Proofs.ClusterProofs Proofs.ClusterRProofs.
Import ListNotations.
Open Scope Z_scope.

(* the enumerated constants of the control skeletons have the values the hand-written model assumes:
   DBSCAN(min_samples = 1); regroup_vectorized scans reversed(groups), filters |dRA| <= rafar, joins on < eps *)
Theorem C19_shape_constants :
  dbscan_min_samples = 1 /\ greedy_scan_newest_first = true /\ greedy_ra_filter_le = true /\ greedy_join_strict = true.
Proof. exact (conj eq_refl (conj eq_refl (conj eq_refl eq_refl))). Qed.

(* every input source is in exactly one group (the ids of all groups together are a permutation of the
   ids of the catalogue, which are pairwise distinct), no group is empty, and apart from the two labels the
   sources that come out are the sources that went in *)
Theorem C19_partition : forall link dbscan, dbscan_ok link dbscan -> forall cat, NoDup (ids cat) ->
  Permutation (map strip (concat (regroup_dbscan dbscan cat))) (map strip cat) /\
  Permutation (ids (concat (regroup_dbscan dbscan cat))) (ids cat) /\
  (forall g, In g (regroup_dbscan dbscan cat) -> g <> []).
Proof. exact dbscan_partition. Qed.

(* two sources share a group exactly when a chain of sources of the catalogue, consecutive ones related by
   [link] (separation <= linking length), joins them *)
Theorem C19_chain_iff : forall link dbscan cat s t, dbscan_ok link dbscan -> NoDup (ids cat) -> symmetric link ->
  In s cat -> In t cat ->
  (same_group (regroup_dbscan dbscan cat) s t <-> clos_refl_trans source (fun a b => In a cat /\ In b cat /\ link a b = true) s t).
Proof. intros link dbscan cat s t H1 H2 H3 H4 H5. exact (dbscan_same_group link dbscan H1 cat s t H2 H3 H4 H5). Qed.

(* the grouping (which sources are together) does not depend on the order of the rows *)
Theorem C19_perm_invariant : forall link dbscan cat cat' s t, dbscan_ok link dbscan -> NoDup (ids cat) ->
  symmetric link -> Permutation cat cat' -> In s cat -> In t cat ->
  (same_group (regroup_dbscan dbscan cat) s t <-> same_group (regroup_dbscan dbscan cat') s t).
Proof. intros link dbscan cat cat' s t H. exact (dbscan_perm_invariant link dbscan H cat cat' s t). Qed.

(* group number i carries island = i; inside a group the source labels are 0..n-1, a smaller label never
   has a smaller peak flux; (island, source) pairs are unique over the whole result.  True for whatever
   labels the clustering library returns. *)
Theorem C19_numbering : forall dbscan cat, NoDup (ids cat) ->
  let out := regroup_dbscan dbscan cat in
  (forall i g, nth_error out i = Some g ->
     (forall s, In s g -> s_island s = Z.of_nat i) /\
     Permutation (map s_source g) (map Z.of_nat (seq 0 (length g))) /\
     (forall s t, In s g -> In t g -> s_source s < s_source t -> s_flux t <= s_flux s)) /\
  NoDup (map label (concat out)).
Proof. exact dbscan_numbering. Qed.

(* no attribute other than island / source is changed *)
Theorem C19_attributes_untouched : forall dbscan cat s', In s' (concat (regroup_dbscan dbscan cat)) ->
  exists s, In s cat /\ s_id s = s_id s' /\ strip s' = strip s.
Proof. exact dbscan_attributes. Qed.

(* the relation used in the correspondence runs: Euclidean distance of the rational unit vectors <= eps
   (eps^2 = en/ed); it is symmetric, and its tabulated form is the same relation *)
Theorem C19_chord_relation : forall en ed,
  symmetric (link_chord en ed) /\
  (forall a b, link_chord en ed a b = true <-> ed * chord2_num (s_pt a) (s_pt b) <= en * chord2_den (s_pt a) (s_pt b)) /\
  (forall cat a b, NoDup (ids cat) -> In a cat -> In b cat ->
     link_tbl (tabulate (link_chord en ed) cat a) (tabulate (link_chord en ed) cat b) = link_chord en ed a b).
Proof.
  intros en ed. split; [apply link_chord_sym|split; [apply link_chord_spec|]].
  intros cat a b Hnd _. apply tabulate_exact, Hnd.
Qed.

(* regroup (greedy, elliptical distance).  [link rec m]: m passes the RA pre-filter of rec and norm_dist(rec, m) < eps; far >= 0 *)

Theorem C19_greedy_partition : forall link far, 0 <= far -> forall cat,
  Permutation (map strip (concat (regroup_greedy link far cat))) (map strip cat) /\
  Permutation (ids (concat (regroup_greedy link far cat))) (ids cat) /\
  (forall g, In g (regroup_greedy link far cat) -> g <> []).
Proof. exact greedy_partition. Qed.

(* every group is chain-connected: any two of its members are joined by links between members of the group *)
Theorem C19_greedy_groups_connected : forall link far cat g', 0 <= far -> In g' (regroup_greedy link far cat) ->
  exists g, In g (greedy_groups link far cat) /\ ids g' = ids g /\ incl g cat /\
            forall x y, In x g -> In y g ->
              clos_refl_sym_trans source (fun a b => In a g /\ In b g /\ link a b = true) x y.
Proof. intros link far cat g' H. exact (greedy_connected link far H cat g'). Qed.

(* for pairwise distinct declinations the whole result (groups, their order, all labels) does not depend
   on the order of the rows *)
Theorem C19_greedy_perm_invariant : forall link far cat cat', NoDup (map s_dec cat) -> Permutation cat cat' ->
  regroup_greedy link far cat' = regroup_greedy link far cat.
Proof. exact greedy_perm_invariant. Qed.

Theorem C19_greedy_numbering : forall link far, 0 <= far -> forall cat, NoDup (ids cat) ->
  let out := regroup_greedy link far cat in
  (forall i g, nth_error out i = Some g ->
     (forall s, In s g -> s_island s = Z.of_nat i) /\
     Permutation (map s_source g) (map Z.of_nat (seq 0 (length g))) /\
     (forall s t, In s g -> In t g -> s_source s < s_source t -> s_flux t <= s_flux s)) /\
  NoDup (map label (concat out)).
Proof. exact greedy_numbering. Qed.

Open Scope R_scope.

Theorem C19_resize_id : forall a b psf_a psf_b, 0 <= a -> 0 <= b ->
  resize_a a psf_a 1 = a /\ resize_b b psf_b 1 = b.
Proof. exact resize_id. Qed.

(* a ratio >= 1 never shrinks a source, and a larger ratio gives a source at least as large *)
Theorem C19_resize_mono : forall a b psf_a psf_b r, 1 <= r ->
  a <= resize_a a psf_a r /\ b <= resize_b b psf_b r /\
  (forall r', r <= r' -> resize_a a psf_a r <= resize_a a psf_a r' /\ resize_b b psf_b r <= resize_b b psf_b r').
Proof. exact resize_mono. Qed.

(* the eps handed to DBSCAN by AeReg and by priorized fitting is the chord of the linking length: two
   positions whose angular separation is gamma degrees (spherical law of cosines) have embedded unit
   vectors at Euclidean distance <= eps exactly when gamma <= linking length (e arcmin) *)
Theorem C19_eps_chord : forall ra1 dec1 ra2 dec2 gamma e, 0 <= gamma <= 180 -> 0 <= e <= 10800 ->
  cos (rad gamma) = sin (rad dec1) * sin (rad dec2) + cos (rad dec1) * cos (rad dec2) * cos (rad ra1 - rad ra2) ->
  (dist3 (emb ra1 dec1) (emb ra2 dec2) <= eps_chord_aereg e <-> gamma <= e / 60) /\
  (dist3 (emb ra1 dec1) (emb ra2 dec2) <= eps_chord_finder e <-> gamma <= e / 60).
Proof. exact eps_chord. Qed.

Open Scope Z_scope.

(* non-vacuity: a catalogue on which every premise is satisfiable.
   unit vectors N = (0,0,1), A = (3,0,4)/5, B = (0,3,4)/5, S = (0,0,-1); eps^2 = 1/2.
   |N-A|^2 = |N-B|^2 = 2/5 <= 1/2 < |A-B|^2 = 18/25: A - N - B is a chain, S is alone.
   fluxes: N 5, A 9, B 5 (tie with N, N is the earlier row), S 1; input labels are junk. *)
Definition ex_src (i : Z) (p : lpt) (dec fl : Z) : source := mkSource i p dec fl 7 7 [] (100 + i).
Definition ex_cat : list source :=
  [ex_src 0 (mkPt 0 0 1 1) 30 5; ex_src 1 (mkPt 3 0 4 5) 20 9; ex_src 2 (mkPt 0 0 (-1) 1) (-90) 1; ex_src 3 (mkPt 0 3 4 5) 10 5].
Definition ex_link := link_chord 1 2.
Definition ex_dbscan : list source -> list nat := comp_labels ex_link.

Example ex_dbscan_ok : dbscan_ok ex_link ex_dbscan.
Proof. intros cat. reflexivity. Qed.
Example ex_ids : NoDup (ids ex_cat).
Proof. vm_compute. repeat constructor; cbn; intuition discriminate. Qed.
Example ex_labels : ex_dbscan ex_cat = [0; 0; 1; 0]%nat.
Proof. vm_compute. reflexivity. Qed.
Example ex_regroup : obs (regroup_dbscan ex_dbscan ex_cat) = [[(0, 0, 1); (1, 0, 0); (3, 0, 2)]; [(2, 1, 0)]].
Proof. vm_compute. reflexivity. Qed.
Example ex_regroup_permuted : obs (regroup_dbscan ex_dbscan (rev ex_cat)) = [[(3, 0, 1); (1, 0, 0); (0, 0, 2)]; [(2, 1, 0)]].
Proof. vm_compute. reflexivity. Qed.
Example ex_tabulated : obs (regroup_dbscan (comp_labels link_tbl) (with_nbrs ex_link ex_cat)) = obs (regroup_dbscan ex_dbscan ex_cat).
Proof. vm_compute. reflexivity. Qed.
(* A and B are not related, yet share a group (chain through N) *)
Example ex_chain : ex_link (nth 1 ex_cat (ex_src 9 (mkPt 0 0 1 1) 0 0)) (nth 3 ex_cat (ex_src 9 (mkPt 0 0 1 1) 0 0)) = false /\
  same_group (regroup_dbscan ex_dbscan ex_cat) (nth 1 ex_cat (ex_src 9 (mkPt 0 0 1 1) 0 0)) (nth 3 ex_cat (ex_src 9 (mkPt 0 0 1 1) 0 0)).
Proof.
  split; [vm_compute; reflexivity|].
  apply (C19_chain_iff ex_link ex_dbscan ex_cat _ _ ex_dbscan_ok ex_ids (link_chord_sym 1 2)); try (cbn; tauto).
  apply rt_trans with (nth 0 ex_cat (ex_src 9 (mkPt 0 0 1 1) 0 0)); apply rt_step; cbn; repeat split; tauto.
Qed.
(* greedy variant on the same catalogue with its distinct declinations (30, 20, 10, -90), far = 1:
   order N, A, B, S; A joins N, B joins the group of N (linked to N, not to A), S is alone *)
Example ex_greedy : obs (regroup_greedy ex_link 1 ex_cat) = [[(0, 0, 1); (1, 0, 0); (3, 0, 2)]; [(2, 1, 0)]].
Proof. vm_compute. reflexivity. Qed.
Example ex_greedy_permuted : regroup_greedy ex_link 1 (rev ex_cat) = regroup_greedy ex_link 1 ex_cat.
Proof. apply C19_greedy_perm_invariant; [vm_compute; repeat constructor; cbn; intuition discriminate|apply Permutation_rev]. Qed.

Print Assumptions C19_partition.
Print Assumptions C19_chain_iff.
Print Assumptions C19_perm_invariant.
Print Assumptions C19_numbering.
Print Assumptions C19_attributes_untouched.
Print Assumptions C19_chord_relation.
Print Assumptions C19_greedy_partition.
Print Assumptions C19_greedy_groups_connected.
Print Assumptions C19_greedy_perm_invariant.
Print Assumptions C19_greedy_numbering.
Print Assumptions C19_resize_id.
Print Assumptions C19_resize_mono.
Print Assumptions C19_eps_chord.
