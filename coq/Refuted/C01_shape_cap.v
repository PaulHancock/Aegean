(* C01 - regression record of the finding "the island-size cap of estimate_lmfit_parinfo excludes the true major axis of a faint
   elongated source".  The cap as the source text writes it, with the decimal constants 1.1 and 1.01 (the generated leaf in
   Gen/Recovery.v holds their binary64 values; this file does not refer to Gen/, which follows the tree):
       sx_max = max((max(xsize, ysize) + 1) * sqrt(2) * FWHM2CC, sx0 * 1.1)        (source_finder.py, estimate_lmfit_parinfo)
   where xsize, ysize are the extent of the island (the pixels above the outer clip) and sx0 the beam sigma.
   Witness (replayed on the real finder by tools/harness/c01.py, KNOWN_CAP): a 16 x 4 pixel FWHM source, beam 4 pixels, S/N 5.2,
   outer clip 4: the island is 10 x 3 pixels, sx_max = 11 sqrt 2 / (2 sqrt (2 ln 2)) = 6.606 < 6.795 = 16 / (2 sqrt (2 ln 2)) = true sigma. *)
From Coq Require Import Reals Lra.
From Interval Require Import Tactic.
Open Scope R_scope.

Definition fwhm2cc : R := 1 / (2 * sqrt (2 * ln 2)).
Definition sx_max_frozen (xsize ysize sx0 : R) : R := Rmax ((Rmax xsize ysize + 1) * sqrt 2 * fwhm2cc) (sx0 * (11 / 10)).

(* the island of the witness really is that short: along the major axis the source drops below outerclip * rms = 4 / 5.2 of its
   peak at |x| = sigma sqrt (2 ln (5.2 / 4)) = 4.92 pixels from the centre, so at most 10 pixels of a row are above the clip *)
Lemma C01_witness_island_length : 2 * (16 * fwhm2cc * sqrt (2 * ln (52 / 40))) < 10.
Proof. unfold fwhm2cc. interval. Qed.

Lemma C01_shape_cap_refuted :
  exists xsize ysize beam sx, 0 < beam /\ beam * fwhm2cc <= sx /\ sx_max_frozen xsize ysize (beam * fwhm2cc * (101 / 100)) < sx.
Proof.
  exists 10, 3, 4, (16 * fwhm2cc). unfold sx_max_frozen, fwhm2cc. split; [lra|]. split.
  - assert (0 < ln 2) by (rewrite <- ln_1; apply ln_increasing; lra).
    assert (0 < sqrt (2 * ln 2)) by (apply sqrt_lt_R0; lra).
    assert (0 < 1 / (2 * sqrt (2 * ln 2))) by (apply Rdiv_lt_0_compat; lra). nra.
  - apply Rmax_lub_lt.
    + rewrite Rmax_left by lra. interval.
    + interval.
Qed.
Print Assumptions C01_shape_cap_refuted.
