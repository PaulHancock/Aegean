(* C02 - regression record of the repaired defect (repo commit 6e96c3f "find_islands seed test and bounding box use
   the island's own pixels"): before the repair source_finder.find_islands had
       xmin, xmax = f[i][0].start, f[i][0].stop
       ymin, ymax = f[i][1].start, f[i][1].stop
       if np.any(snr[xmin:xmax, ymin:ymax] > seed_clip):          # now: snr[xmin:xmax, ymin:ymax][own] > seed_clip
   i.e. the seed test looked at EVERY pixel of the group's bounding box.  A faint group whose box contains a bright
   pixel of another island was reported as an island although none of its own pixels is above the seed threshold.
   Self-contained apart from Lib/Graph.v (the verified connectivity classes, which does not import Gen/): frozen
   copies of the PRE-FIX leaves (seed_scope_own = false; snr_num, flood_test, seed_test, conn_reach as generated) and
   of the fragment of Model/IslandModel.v up to `islands` (IslandModel imports Gen.Islands).
   Statement refuted = the last clause of C02_islands_sound:
       In I (islands img fl sd) -> exists s, In s I /\ seed_ok img sd s = true.
   Replay on the old code: find_islands(im, bkg=0, rms=1, seed_clip=5, flood_clip=3) with
       im = [[4,0,0,0],[4,0,10,0],[4,0,0,0],[4,4,4,4]]
   returns 2 islands (the L-shaped group of 4s, peak S/N 4 < 5, and the pixel 10); the repaired code returns 1. *)
From Coq Require Import ZArith Bool List Lia.
From Aegean Require Import Lib.Graph.
Import ListNotations.
Open Scope Z_scope.

(* frozen leaves, as the translator read them from the pre-fix source_finder.py *)
Definition snr_num (im bkg : Z) : Z := (Z.abs (im - bkg)).
Definition flood_test (num den cn cd : Z) : bool := (cn * den <=? num * cd).
Definition seed_test (num den cn cd : Z) : bool := (cn * den <? num * cd).
Definition seed_scope_own_old : bool := false.
Definition conn_reach : Z := 1.

(* model fragment (copy of Model/IslandModel.v) *)
Definition pix := (Z * Z)%type.
Record pixel := mkPixel { p_im : option Z; p_bkg : option Z; p_rms : option Z }.
Definition image := list (list pixel).
Record clip := mkClip { c_num : Z; c_den : Z }.
Definition pix_eqb (p q : pix) : bool := (fst p =? fst q) && (snd p =? snd q).
Definition get (img : image) (p : pix) : option pixel :=
  if (fst p <? 0) || (snd p <? 0) then None
  else match nth_error img (Z.to_nat (fst p)) with
       | Some row => nth_error row (Z.to_nat (snd p))
       | None => None
       end.
Definition snr_of (px : pixel) : option (Z * Z) :=
  match p_im px, p_bkg px, p_rms px with
  | Some i, Some b, Some r => Some (snr_num i b, r)
  | _, _, _ => None
  end.
Definition snr (img : image) (p : pix) : option (Z * Z) :=
  match get img p with Some px => snr_of px | None => None end.
Definition flood_ok (img : image) (fl : clip) (p : pix) : bool :=
  match snr img p with Some (n, d) => flood_test n d (c_num fl) (c_den fl) | None => false end.
Definition seed_ok (img : image) (sd : clip) (p : pix) : bool :=
  match snr img p with Some (n, d) => seed_test n d (c_num sd) (c_den sd) | None => false end.
Fixpoint zseq (lo : Z) (n : nat) : list Z :=
  match n with O => [] | S n' => lo :: zseq (lo + 1) n' end.
Definition all_pixels (img : image) : list pix :=
  flat_map (fun rr : Z * list pixel => map (fun c => (fst rr, c)) (zseq 0 (length (snd rr))))
           (combine (zseq 0 (length img)) img).
Definition adj (p q : pix) : bool :=
  (Z.abs (fst p - fst q) <=? conn_reach) && (Z.abs (snd p - snd q) <=? conn_reach).
Definition nodes (img : image) (fl : clip) : list pix := filter (flood_ok img fl) (all_pixels img).
Definition groups (img : image) (fl : clip) : list (list pix) :=
  components pix pix_eqb adj (nodes img fl).
Definition bbox (I : list pix) : Z * Z * Z * Z :=
  match I with
  | [] => (0, 0, 0, 0)
  | p :: t =>
    (fold_right Z.min (fst p) (map fst t), fold_right Z.max (fst p) (map fst t) + 1,
     fold_right Z.min (snd p) (map snd t), fold_right Z.max (snd p) (map snd t) + 1)
  end.
Definition box_pixels (b : Z * Z * Z * Z) : list pix :=
  let '(r0, r1, c0, c1) := b in
  flat_map (fun r => map (fun c => (r, c)) (zseq c0 (Z.to_nat (c1 - c0)))) (zseq r0 (Z.to_nat (r1 - r0))).
Definition seed_scope_with (own : bool) (I : list pix) : list pix := if own then I else box_pixels (bbox I).
Definition islands_with (own : bool) (img : image) (fl sd : clip) : list (list pix) :=
  filter (fun I => existsb (seed_ok img sd) (seed_scope_with own I)) (groups img fl).
Definition islands_old := islands_with seed_scope_own_old.

(* the witness: a faint L (value 4) around a separate bright pixel (value 10) that lies inside the L's box and is not
   8-connected to it; bkg 0, rms 1, flood clip 3, seed clip 5 *)
Definition px (i : Z) : pixel := mkPixel (Some i) (Some 0) (Some 1).
Definition w_img : image :=
  [[px 4; px 0; px 0;  px 0];
   [px 4; px 0; px 10; px 0];
   [px 4; px 0; px 0;  px 0];
   [px 4; px 4; px 4;  px 4]].
Definition w_fl : clip := mkClip 3 1.
Definition w_sd : clip := mkClip 5 1.
Definition w_L : list pix := [(3, 3); (3, 2); (3, 0); (3, 1); (2, 0); (1, 0); (0, 0)].

Example C02_seed_bbox_witness_values :
  islands_old w_img w_fl w_sd = [w_L; [(1, 2)]] /\
  islands_with true w_img w_fl w_sd = [[(1, 2)]] /\
  bbox w_L = (0, 4, 0, 4) /\ existsb (seed_ok w_img w_sd) w_L = false.
Proof. repeat split; vm_compute; reflexivity. Qed.

Theorem C02_seed_bbox_refuted : exists img fl sd I,
  0 < c_den fl /\ 0 < c_den sd /\ In I (islands_old img fl sd) /\ ~ exists s, In s I /\ seed_ok img sd s = true.
Proof.
  exists w_img, w_fl, w_sd, w_L. split; [reflexivity|]. split; [reflexivity|]. split.
  - rewrite (proj1 C02_seed_bbox_witness_values). left. reflexivity.
  - intros H. apply existsb_exists in H. vm_compute in H. discriminate H.
Qed.

Print Assumptions C02_seed_bbox_refuted.
