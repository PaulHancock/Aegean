(* C03 - regression record of the PRE-REPAIR decision table of fitting.errors (before err_peak_flux and the propagated
   values were masked unless positive and finite, and before covar_errors fell back to nan instead of -2).
   Input classes that table did NOT cover: the statement "every err_* is positive-finite or exactly -1 for a component
   without NOTFIT/FITERR" fails for these inputs.  frozen_guards copies the guards of that code: the early mask
   18 = NOTFIT | FITERR, then vary_x and vary_y and all(isfinite(..)) etc.  The repair left the guards as they were
   (CatRowsProofs.current_guards_char) and added the masking steps; the table without them is errors_model_with.
   On a tree without the repair tools/harness/c03.py finds these classes on the real fitting.errors and on real images. *)
From Coq Require Import ZArith NArith Bool List.
From Aegean Require Import Model.CatalogRows.
Import ListNotations.

Definition frozen_guards : err_guards :=
  mkGuards 18%N (fun a b c d => a && b && (c && d)) (fun a b => a && b) (fun a b c d => a && b && (c && d)).

Definition full (amp xo yo sx sy th peak a b int : cls) : err_in :=
  mkErrIn 0 true true true true true true amp xo yo sx sy th peak a b int.
Definition bad (o : option err_out) : Prop :=
  match o with Some out => err_out_ok out = false | None => True end.

(* the unrestricted statement is false *)
Lemma C03_errors_masked_refuted :
  exists i, has (ei_flags i) 18%N = false /\ ei_ref_finite i = true /\ bad (errors_model_with frozen_guards i).
Proof. exists (full NegOther NegOther NegOther NegOther NegOther NegOther Pos Pos Pos Pos). vm_compute. auto. Qed.

(* 1. stderr = -2 for every varying parameter (covar_errors after a singular covariance matrix):
      err_peak_flux = -2, all the others come out positive *)
Example uncovered_singular_covariance :
  errors_model_with frozen_guards (full NegOther NegOther NegOther NegOther NegOther NegOther Pos Pos Pos Pos)
  = Some (mkErrOut NegOther Pos Pos Pos Pos Pos Pos false).
Proof. vm_compute. reflexivity. Qed.
(* 2. NaN amplitude stderr (sqrt of a negative diagonal element): err_peak_flux = NaN is copied unguarded *)
Example uncovered_nan_amplitude :
  errors_model_with frozen_guards (full CNan Pos Pos Pos Pos Pos Pos Pos Pos Pos)
  = Some (mkErrOut CNan Pos Pos Pos Pos Pos Pos false).
Proof. vm_compute. reflexivity. Qed.
(* 3. +inf amplitude stderr: err_peak_flux = inf and err_int_flux = inf *)
Example uncovered_inf_amplitude :
  errors_model_with frozen_guards (full CPInf Pos Pos Pos Pos Pos Pos Pos Pos Pos)
  = Some (mkErrOut CPInf Pos Pos Pos Pos Pos CPInf false).
Proof. vm_compute. reflexivity. Qed.
(* 4. stderr exactly 0: the sky errors come out 0 (neither positive nor -1) *)
Example uncovered_zero_stderr :
  errors_model_with frozen_guards (full Pos Zero Zero Zero Zero Zero Pos Pos Pos Pos)
  = Some (mkErrOut Pos Zero Zero Zero Zero Zero Pos false).
Proof. vm_compute. reflexivity. Qed.
(* 5. stderr None (lmfit leaves None when it could not estimate errors) on a varying parameter: TypeError *)
Example uncovered_none_stderr :
  errors_model_with frozen_guards (full Pos PyNone Pos Pos Pos Pos Pos Pos Pos Pos) = None /\
  errors_model_with frozen_guards (full PyNone Pos Pos Pos Pos Pos Pos Pos Pos Pos) = None.
Proof. vm_compute. auto. Qed.
(* 6. zero width / zero peak: division by zero in the relative errors, outside the table *)
Example uncovered_zero_width :
  errors_model_with frozen_guards (full Pos Pos Pos Pos Pos Pos Pos Zero Pos Pos) = None /\
  errors_model_with frozen_guards (full Pos Pos Pos Pos Pos Pos Zero Pos Pos Pos) = None.
Proof. vm_compute. auto. Qed.
(* 7. zero integrated flux: err_int_flux = 0 *)
Example uncovered_zero_int_flux :
  errors_model_with frozen_guards (full Pos Pos Pos Pos Pos Pos Pos Pos Pos Zero)
  = Some (mkErrOut Pos Pos Pos Pos Pos Pos Zero false).
Proof. vm_compute. reflexivity. Qed.
Print Assumptions C03_errors_masked_refuted.
