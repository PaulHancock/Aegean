(* C03 - regression record: the pre-fix leaf `istart = i` of priorized_fit_islands
   (self._refit_islands(g, stage, outerclip, istart=i), repaired in /repo by 08dbfe1 to i * group_size).
   Frozen copy of the old leaf, put through the numbering of the current model (ids_of_batches_with) on batches of
   20 cut by hand: firstn 20 / skipn 20, which is what the batching loop makes of 21 groups. *)
From Coq Require Import ZArith Bool List Lia.
From Aegean Require Import Model.CatalogRows Proofs.CatRowsProofs.
Import ListNotations.
Open Scope Z_scope.

Definition istart_old (i gs : Z) : Z := i.

(* (batch 0, position 1) and (batch 1, position 0) get the same island number *)
Lemma C03_priorized_ids_unique_refuted :
  exists g g' k k', 0 <= k < 20 /\ 0 <= k' < 20 /\ istart_old g 20 + k = istart_old g' 20 + k' /\ ~ (g = g' /\ k = k').
Proof. exists 0, 1, 1, 0. unfold istart_old. repeat split; lia. Qed.

(* on the numbering skeleton (frozen batching: batches of 20): 21 island groups, i.e. one full batch and one
   more group, already collide *)
Definition old_islands (groups : list (option Z)) : list (Z * Z) :=
  keep_fitted (combine (ids_of_batches_with istart_old 20 [firstn 20 groups; skipn 20 groups]) groups).
Lemma C03_priorized_rows_unique_refuted :
  exists groups : list (option Z), length groups = 21%nat /\ ~ NoDup (rows_of (old_islands groups)).
Proof.
  exists (repeat (Some 1) 21). split; [reflexivity|]. intro H.
  assert (nodupb pair_eqb (rows_of (old_islands (repeat (Some 1) 21))) = false) as E
    by (vm_compute; reflexivity).
  apply (nodupb_iff pair_eqb pair_eqb_iff) in H. congruence.
Qed.
Example the_collision :
  map fst (old_islands (repeat (Some 1) 21)) =
  [0; 1; 2; 3; 4; 5; 6; 7; 8; 9; 10; 11; 12; 13; 14; 15; 16; 17; 18; 19; 1].
Proof. vm_compute. reflexivity. Qed.
Print Assumptions C03_priorized_rows_unique_refuted.
