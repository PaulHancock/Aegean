(* C04 - regression record of the repaired defect (repo commit 3d3219d "jacobian theta column is the derivative per
   degree"): before the repair the theta block of fitting.jacobian was
       dmdtheta = model * (sy**2 - sx**2) * (xsin - ycos) * (xcos + ysin) / sx**2 / sy**2
   without the factor pi/180, i.e. the derivative of the model per RADIAN, while the parameter theta of
   elliptical_gaussian is in DEGREES (sint = sin(radians(theta))).  The optimiser was handed a theta column 180/pi =
   57.3 times too large.
   Self-contained: frozen copies of fitting.elliptical_gaussian (`gauss`, as generated into Gen/Gauss.v) and of the
   PRE-FIX theta block (`d_theta_old`); imports only Lib/RBase (rad); no reference to Gen/, Model/ or Proofs/.
   Statement refuted = the p = 5 instance of C04_partials:
       is_derive (fun t => gauss x y amp xo yo sx sy t) theta (d_theta x y amp xo yo sx sy theta)   (sx, sy <> 0).
   Replay on the old code: AegeanTools.fitting.jacobian with one component amp=1 xo=0 yo=0 sx=1 sy=2 theta=0 (vary all)
   at (x, y) = (1, 1): last row = -0.40144607 (old) against the central finite difference -0.00700656 per degree. *)
From Coq Require Import Reals Lra.
From Coquelicot Require Import Coquelicot.
From Interval Require Import Tactic.
From Aegean Require Import Lib.RBase.
Open Scope R_scope.

(* fitting.elliptical_gaussian - frozen copy *)
Definition gauss (x y amp xo yo sx sy theta : R) : R :=
  let v_sint := (sin (rad theta)) in
  let v_cost := (cos (rad theta)) in
  let v_xxo := (x - xo) in
  let v_yyo := (y - yo) in
  let v_exp := (((((v_xxo * v_cost) + (v_yyo * v_sint)) ^ 2) / (sx ^ 2)) + ((((v_xxo * v_sint) - (v_yyo * v_cost)) ^ 2) / (sy ^ 2))) in
  let v_exp' := (v_exp * ((IZR (-1)) / 2)) in
  (amp * (exp v_exp')).

(* fitting.jacobian, `if pars[prefix+'theta'].vary` block BEFORE 3d3219d - frozen copy (no `dmdtheta *= np.pi / 180`) *)
Definition d_theta_old (x y amp xo yo sx sy theta : R) : R :=
  let v_model := (gauss x y amp xo yo sx sy theta) in
  let v_sint := (sin (rad theta)) in
  let v_cost := (cos (rad theta)) in
  let v_xxo := (x - xo) in
  let v_yyo := (y - yo) in
  let v_xcos := (v_xxo * v_cost) in
  let v_ycos := (v_yyo * v_cost) in
  let v_xsin := (v_xxo * v_sint) in
  let v_ysin := (v_yyo * v_sint) in
  let v_dmdtheta := (((((v_model * ((sy ^ 2) - (sx ^ 2))) * (v_xsin - v_ycos)) * (v_xcos + v_ysin)) / (sx ^ 2)) / (sy ^ 2)) in
  v_dmdtheta.

(* the chain rule through the exponential, as in Proofs/GaussProofs.v (copied: GaussProofs imports Gen.Gauss) *)
Lemma gauss_chain (q : R -> R) amp t0 dq : is_derive q t0 dq ->
  is_derive (fun t => amp * exp (q t * (IZR (-1) / 2))) t0 (amp * exp (q t0 * (IZR (-1) / 2)) * (dq * (IZR (-1) / 2))).
Proof.
  intros H. auto_derive; [exists dq; exact H|].
  replace (Derive (fun x : R => q x) t0) with dq by (symmetry; apply is_derive_unique, H). ring.
Qed.

(* the TRUE derivative with respect to theta (degrees) is the old expression times pi/180 *)
Lemma d_theta_true x y amp xo yo sx sy theta : sx <> 0 -> sy <> 0 ->
  is_derive (fun t => gauss x y amp xo yo sx sy t) theta (d_theta_old x y amp xo yo sx sy theta * (PI / 180)).
Proof.
  intros Hx Hy. unfold d_theta_old, gauss. cbv zeta.
  evar_last; [apply (gauss_chain (fun t => ((x - xo) * cos (rad t) + (y - yo) * sin (rad t)) ^ 2 / sx ^ 2
                                             + ((x - xo) * sin (rad t) - (y - yo) * cos (rad t)) ^ 2 / sy ^ 2));
              unfold rad; auto_derive; [repeat split; auto | reflexivity]|].
  unfold rad, Rdiv. field. split; assumption.
Qed.

(* the witness point: amp = 1, centre (0,0), sx = 1, sy = 2, theta = 0 deg, pixel (1,1) *)
Lemma old_value_at_witness : d_theta_old 1 1 1 0 0 1 2 0 = - (3 / 4) * exp (- (5 / 8)).
Proof.
  unfold d_theta_old, gauss, rad. cbv zeta.
  replace (0 * PI / 180) with 0 by field. rewrite sin_0, cos_0.
  replace (((1 - 0) * 1 + (1 - 0) * 0) ^ 2 / 1 ^ 2 + ((1 - 0) * 0 - (1 - 0) * 1) ^ 2 / 2 ^ 2) with (5 / 4) by field.
  replace (5 / 4 * (IZR (-1) / 2)) with (- (5 / 8)) by field.
  field.
Qed.
(* the value is -0.40 (interval with software floats: no primitive-float axioms); the refutation uses only its sign
   (old_value_negative) and pi / 180 < 1 (scale_small) *)
Lemma old_value_enclosure : - (403 / 1000) < d_theta_old 1 1 1 0 0 1 2 0 < - (401 / 1000).
Proof. rewrite old_value_at_witness. split; interval with (i_prec 40). Qed.
Lemma old_value_negative : d_theta_old 1 1 1 0 0 1 2 0 < 0.
Proof. rewrite old_value_at_witness. pose proof (exp_pos (- (5 / 8))). lra. Qed.
Lemma scale_small : 0 < PI / 180 < 1 / 40.
Proof. pose proof PI_RGT_0. pose proof PI_4. split; lra. Qed.

Theorem C04_theta_scale_refuted : exists x y amp xo yo sx sy theta,
  amp <> 0 /\ sx <> 0 /\ sy <> 0 /\
  ~ is_derive (fun t => gauss x y amp xo yo sx sy t) theta (d_theta_old x y amp xo yo sx sy theta).
Proof.
  exists 1, 1, 1, 0, 0, 1, 2, 0.
  split; [lra|]. split; [lra|]. split; [lra|].
  intros Hold.
  assert (Htrue := d_theta_true 1 1 1 0 0 1 2 0 ltac:(lra) ltac:(lra)).
  apply is_derive_unique in Hold. apply is_derive_unique in Htrue.
  rewrite Hold in Htrue.
  (* d = d * k with d < 0 and 0 < k < 1/40 *)
  pose proof old_value_negative as Hneg. pose proof scale_small as [Hs0 Hs1].
  pose proof (Rmult_lt_0_compat (- d_theta_old 1 1 1 0 0 1 2 0) (1 - PI / 180) ltac:(lra) ltac:(lra)). lra.
Qed.

(* size of the error: the old column is 180/pi (more than 57) times the true derivative at every point *)
Lemma C04_theta_scale_factor x y amp xo yo sx sy theta : sx <> 0 -> sy <> 0 ->
  d_theta_old x y amp xo yo sx sy theta
  = (180 / PI) * Derive (fun t => gauss x y amp xo yo sx sy t) theta /\ 57 < 180 / PI.
Proof.
  intros Hx Hy. split.
  - assert (E : Derive (fun t => gauss x y amp xo yo sx sy t) theta = d_theta_old x y amp xo yo sx sy theta * (PI / 180))
      by (apply is_derive_unique, d_theta_true; assumption).
    rewrite E. field. apply PI_neq0.
  - interval with (i_prec 40).
Qed.

Print Assumptions C04_theta_scale_refuted.
