(* C05 - regression record of the shape limits of source_finder._refit_islands before /repo 318103b.
   Frozen copy of the leaves as they were:
       s_lims = [0.8 * min(sx, pixbeam.b * FWHM2CC), max(sy, sx) * 1.25]
       params.add(prefix + 'sy', value=sy, min=s_lims[0], max=s_lims[1], vary=stage >= 3)
   lmfit.Parameter moves the initial value into [min, max] whether or not the parameter varies, so a
   catalogue source whose minor axis was below 0.8 x min(major axis, beam minor axis) was measured with a
   DIFFERENT, larger minor axis at stages 1 and 2, where the shape is documented to be held at the catalogue
   value (and its flux was biased accordingly).  The repaired lower limit takes min(sx, sy, ...), for which
   Proofs/PriorizedLeaves.shape_limits_spec holds and C05_fixed_roundtrip needs no hypothesis on the limits. *)
From Coq Require Import ZArith QArith Lia Lqa.
From Aegean Require Import Lib.QPy.
Open Scope Q_scope.

(* `_cur`: current when the record was taken, i.e. the leaves BEFORE 318103b (0.8 is printed as its binary64 value) *)
Definition shape_lower_cur (sx sy beam_a beam_b k : Q) : Q := ((3602879701896397 # 4503599627370496) * (qmin sx (beam_b * k))).
Definition shape_upper_cur (sx sy beam_a beam_b k : Q) : Q := ((qmax sy sx) * (5 # 4)).
Definition clip_cur (v lo hi : Q) : Q := if Qltb hi v then hi else if Qltb v lo then lo else v.

(* sigma 3 x 1 pixels (an elongated but legal ellipse, b <= a), beam sigma 2 pixels: sy becomes 1.6 *)
Lemma C05_shape_clipped_refuted : exists sx sy beam_b k : Q,
  0 < sy /\ sy <= sx /\
  ~ clip_cur sy (shape_lower_cur sx sy beam_b beam_b k) (shape_upper_cur sx sy beam_b beam_b k) == sy /\
  (16 # 10) - (1 # 1000000) < clip_cur sy (shape_lower_cur sx sy beam_b beam_b k) (shape_upper_cur sx sy beam_b beam_b k).
Proof.
  exists (3 # 1), (1 # 1), (4 # 1), (1 # 2). split; [reflexivity|]. split; [discriminate|]. split.
  - vm_compute. discriminate.
  - vm_compute. reflexivity.
Qed.

(* every minor axis below the lower limit is replaced by the limit *)
Lemma C05_shape_clipped_all : forall sx sy beam_b k,
  sy < shape_lower_cur sx sy beam_b beam_b k -> sy <= shape_upper_cur sx sy beam_b beam_b k ->
  clip_cur sy (shape_lower_cur sx sy beam_b beam_b k) (shape_upper_cur sx sy beam_b beam_b k) = shape_lower_cur sx sy beam_b beam_b k.
Proof.
  intros sx sy beam_b k H1 H2. unfold clip_cur.
  assert (E1 : Qltb (shape_upper_cur sx sy beam_b beam_b k) sy = false) by (apply Qltb_false_iff; exact H2).
  assert (E2 : Qltb sy (shape_lower_cur sx sy beam_b beam_b k) = true) by (apply Qltb_iff; exact H1).
  rewrite E1, E2. reflexivity.
Qed.
