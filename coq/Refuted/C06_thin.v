(* C06 finding (regression record): for an image with ONE row (or one column) every box of BANE.sigma_filter is an
   empty slice, so every grid node is NaN and both maps are NaN everywhere - a constant image does not give background
   = constant, and an image without blank pixels gives maps with blank pixels.

   Frozen copy of the box closure as generated from BANE.py
     r_min = max(0, r - box_size[0] // 2);  r_max = min(data.shape[0] - 1, r + box_size[0] // 2)
   and of the python slice data[r_min:r_max] (which EXCLUDES r_max).  This file does not refer to Gen/. *)
From Coq Require Import ZArith List Lia.
Import ListNotations.
Open Scope Z_scope.

Definition box_min (r b n : Z) : Z := Z.max 0 (r - b / 2).
Definition box_max (r b n : Z) : Z := Z.min (n - 1) (r + b / 2).
(* indices of the python slice [a:b) for 0 <= a *)
Definition pyslice (a b : Z) : list Z := map (fun k => a + Z.of_nat k) (seq 0 (Z.to_nat (b - a))).

(* with a single row (n = 1) the slice around every node and for every box size is empty *)
Lemma C06_thin_refuted : forall r b, pyslice (box_min r b 1) (box_max r b 1) = [].
Proof.
  intros r b. unfold pyslice, box_min, box_max.
  replace (Z.to_nat (Z.min (1 - 1) (r + b / 2) - Z.max 0 (r - b / 2))) with 0%nat by lia. reflexivity.
Qed.

(* more generally the last row of the data held by a stripe (and the last column of the image) is in no box *)
Lemma C06_last_row_unused : forall r b n, ~ In (n - 1) (pyslice (box_min r b n) (box_max r b n)).
Proof.
  intros r b n H. unfold pyslice in H. apply in_map_iff in H as [k [E Hk]]. apply in_seq in Hk.
  unfold box_min, box_max in *. lia.
Qed.
