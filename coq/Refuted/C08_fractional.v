(* C08 - regression record of the repaired defects (repo commits 88fcd8d "Region.union degrades finer pixels with
   integer division" and fb5ce85 "Region._renorm promotes to integer pixel numbers"): before the repair
       Region.union :   pp = p/4**(d-self.maxdepth)          (* now p//4**(d-self.maxdepth) *)
       Region._renorm:  self.pixeldict[d-1].add(p/4)         (* now p//4 *)
   used Python 3 TRUE division.  The ancestor of a finer pixel was therefore stored as a fraction (5/16 = 0.3125),
   which is not a HEALPix pixel number at all: every later query (sky_within, get_demoted, the set operations, the
   exports) compares it with integer pixel numbers and never finds it.
   Self-contained: pixel identifiers are rationals here (Python `/` on ints = exact rational division for these
   sizes: 5/16 is a binary64 number); frozen copies of the PRE-FIX leaves `degrade` and `parent` in that reading and
   of the union fragment of Model/RegionModel.v (which imports Gen.Regions); no import from the project.
   Statement refuted = the clause of C08_reachable_inv / C08_step_inv (Inv -> valid -> vcell) that every stored pixel
   identifier is a valid INTEGER for its level - over Z that is the typing of `cells`; over Q it reads
   `exists z, id == z /\ 0 <= z < 12 * 4^level`.
   Replay on the old code: r = Region(maxdepth=4); r.add_pixels([7], 4); o = Region(maxdepth=6); o.add_pixels([5], 6);
   r.union(o, renorm=False)  ->  r.pixeldict[4] == {0.3125, 7}. *)
From Coq Require Import ZArith QArith Qround Bool List Lia.
Import ListNotations.
Open Scope Z_scope.

Definition qcell := (Z * Q)%type.           (* (level, pixel identifier as Python computed it) *)
Record qregion := mkQRegion { qdepth : Z; qcells : list qcell }.

(* frozen PRE-FIX leaves, `/` read as true division *)
Definition degrade_old (p : Q) (d maxdepth : Z) : Q := (p / inject_Z (4 ^ (d - maxdepth)))%Q.
Definition parent_old (p : Q) : Q := (p / (4 # 1))%Q.
(* the repaired leaves (Gen/Regions.v today): floor division *)
Definition degrade_new (p : Q) (d maxdepth : Z) : Q := inject_Z (Qfloor (p / inject_Z (4 ^ (d - maxdepth)))).

(* Region.union without renormalisation (copy of the fragment of Model/RegionModel.v, identifiers in Q) *)
Definition union_with (degrade : Q -> Z -> Z -> Q) (s o : qregion) : qregion :=
  let m := Z.min (qdepth s) (qdepth o) in
  let common := filter (fun c => (1 <=? fst c) && (fst c <=? m)) (qcells o) in
  let finer := if qdepth s <? qdepth o
               then filter (fun c => (qdepth s <? fst c) && (fst c <=? qdepth o)) (qcells o)
               else [] in
  mkQRegion (qdepth s) (map (fun c => (qdepth s, degrade (snd c) (fst c) (qdepth s))) finer ++ common ++ qcells s).

(* the property clause: every stored identifier is an integer that is a valid pixel number of its level *)
Definition vcell_q (D : Z) (c : qcell) : Prop :=
  1 <= fst c <= D /\ exists z : Z, (snd c == inject_Z z)%Q /\ 0 <= z < 12 * 4 ^ fst c.
Definition valid_q (s : qregion) : Prop := 1 <= qdepth s /\ Forall (vcell_q (qdepth s)) (qcells s).

Definition w_self : qregion := mkQRegion 4 [(4, 7 # 1)].
Definition w_other : qregion := mkQRegion 6 [(6, 5 # 1)].

Lemma single_valid D p : 1 <= D -> 0 <= p < 12 * 4 ^ D -> valid_q (mkQRegion D [(D, inject_Z p)]).
Proof.
  intros HD Hp. split; [exact HD|]. apply Forall_cons; [|apply Forall_nil].
  split; cbn [fst snd qdepth]; [lia|]. exists p. split; [reflexivity | exact Hp].
Qed.

Lemma w_valid : valid_q w_self /\ valid_q w_other.
Proof. split; [apply (single_valid 4 7) | apply (single_valid 6 5)]; now vm_compute. Qed.

Example C08_fractional_witness_values :
  qcells (union_with degrade_old w_self w_other) = [(4, 5 # 16); (4, 7 # 1)] /\
  qcells (union_with degrade_new w_self w_other) = [(4, 0 # 1); (4, 7 # 1)].
Proof. split; vm_compute; reflexivity. Qed.

Theorem C08_fractional_refuted : exists s o,
  valid_q s /\ valid_q o /\ ~ valid_q (union_with degrade_old s o).
Proof.
  exists w_self, w_other. split; [apply w_valid|]. split; [apply w_valid|].
  intros [_ H]. rewrite (proj1 C08_fractional_witness_values) in H.
  apply Forall_inv in H. destruct H as [_ [z [E _]]].
  (* 5/16 == z/1  means  5 * 1 = z * 16 *)
  unfold Qeq in E. cbn [Qnum Qden inject_Z snd] in E. lia.
Qed.

(* _renorm promotes only complete sibling groups p, p+1, p+2, p+3 with p % 4 == 0, so the VALUE of the old p/4
   is integral (the float 3.0 hashes and compares like the int 3); its defect was the type of the stored identifier
   (float) which a rational model does not distinguish - recorded here for completeness, not as a refutation *)
Example C08_renorm_old_value_integral : forall p, (parent_old (inject_Z (4 * p)) == inject_Z p)%Q.
Proof. intros p. unfold parent_old. rewrite inject_Z_mult. change (inject_Z 4) with (4 # 1)%Q. field. Qed.

Print Assumptions C08_fractional_refuted.
