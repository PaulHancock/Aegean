(* C08 - regression record of the repaired defect (repo commit ca2d402 "Region.add_pixels invalidates the cached
   demoted pixel set"): before the repair Region.add_pixels ended with
       self.pixeldict[depth].update(set(pix))
   and left `self.demoted` alone.  `_demote_all` only works `if len(self.demoted) == 0`, so once any query
   (get_demoted / sky_within / a set operation) had filled the cache, pixels added afterwards at a COARSER level were
   never pushed down and every later query ignored them.
   Self-contained: frozen copies of the PRE-FIX leaves (add_pixels_resets_cache = false; children, demote_lo,
   demote_hi as read from `for d in range(1, self.maxdepth)` / `set((4*p, 4*p+1, 4*p+2, 4*p+3))`) and of the fragment
   add_pixels_with / demote_all / get_demoted of Model/RegionModel.v and cover / cover_set / absP of
   Model/RegionSpec.v (both import Gen.Regions); no import from the project.
   Statement refuted = the GetDemoted clause of C08_refines_step (spec_out):
       snd (step s GetDemoted) = OPix l  with  forall q, In q l <-> absP s q      (for every reachable s).
   Replay on the old code: r = Region(maxdepth=3); r.add_pixels([21], 3); r.get_demoted()  -> {21};
   r.add_pixels([1], 2); r.get_demoted()  -> {21}  (pixels 4, 5, 6, 7 - the descendants of (2, 1) - are missing). *)
From Coq Require Import ZArith Bool List Lia.
Import ListNotations.
Open Scope Z_scope.

(* frozen leaves, as the translator read them from the pre-fix regions.py *)
Definition add_pixels_resets_cache_old : bool := false.
Definition demote_lo : Z := 1.
Definition demote_hi (maxdepth : Z) : Z := maxdepth.
Definition children (p : Z) : list Z := [(4 * p); ((4 * p) + 1); ((4 * p) + 2); ((4 * p) + 3)].

(* model fragment (copy of Model/RegionModel.v) *)
Definition cell := (Z * Z)%type.
Record region := mkRegion { depth : Z; cells : list cell; cached : bool }.
Definition level (cs : list cell) (d : Z) : list Z := map snd (filter (fun c => fst c =? d) cs).
Definition at_level (d : Z) (ps : list Z) : list cell := map (pair d) ps.
Definition init (D : Z) : region := mkRegion D [] false.
Fixpoint expand (k : nat) (p : Z) : list Z :=
  match k with
  | O => [p]
  | S k' => flat_map (expand k') (children p)
  end.
Definition add_pixels_with (resets : bool) (s : region) (d : Z) (ps : list Z) : region :=
  mkRegion (depth s) (at_level d ps ++ cells s) (if resets then false else cached s).
Definition add_pixels_old := add_pixels_with add_pixels_resets_cache_old.
Definition demotable (D : Z) (c : cell) : bool := (demote_lo <=? fst c) && (fst c <? demote_hi D).
Definition demoted_cells (D : Z) (cs : list cell) : list cell :=
  flat_map (fun c => if demotable D c
                     then at_level (demote_hi D) (expand (Z.to_nat (demote_hi D - fst c)) (snd c))
                     else [c]) cs.
Definition demote_all (s : region) : region :=
  if cached s && negb (match level (cells s) (depth s) with [] => true | _ => false end)
  then s
  else mkRegion (depth s) (demoted_cells (depth s) (cells s)) true.
Definition get_demoted (s : region) : region * list Z :=
  let s' := demote_all s in (s', level (cells s') (depth s')).

Inductive op := AddPixels (d : Z) (ps : list Z) | GetDemoted.
Inductive out := OUnit | OPix (l : list Z).
Definition step_with (resets : bool) (s : region) (o : op) : region * out :=
  match o with
  | AddPixels d ps => (add_pixels_with resets s d ps, OUnit)
  | GetDemoted => let '(s', r) := get_demoted s in (s', OPix r)
  end.
Fixpoint outputs (resets : bool) (s : region) (ops : list op) : list out :=
  match ops with
  | [] => []
  | o :: rest => let '(s', r) := step_with resets s o in r :: outputs resets s' rest
  end.
Definition run (resets : bool) (s : region) (ops : list op) : region :=
  fold_left (fun s o => fst (step_with resets s o)) ops s.

(* specification fragment (copy of Model/RegionSpec.v) *)
Definition cover (D : Z) (c : cell) (q : Z) : Prop :=
  if fst c <=? D
  then 4 ^ (D - fst c) * snd c <= q < 4 ^ (D - fst c) * (snd c + 1)
  else q = snd c / 4 ^ (fst c - D).
Definition cover_set (D : Z) (cs : list cell) (q : Z) : Prop := exists c, In c cs /\ cover D c q.
Definition absP (s : region) : Z -> Prop := cover_set (depth s) (cells s).
Definition op_ok (D : Z) (o : op) : Prop :=
  match o with
  | AddPixels d ps => 1 <= d <= D /\ Forall (fun p => 0 <= p < 12 * 4 ^ d) ps
  | GetDemoted => True
  end.

(* the history: add a deepest-level pixel, query, add a coarser pixel, query *)
Definition w_ops (D p q : Z) : list op := [AddPixels D [p]; GetDemoted; AddPixels (D - 1) [q]].

Example C08_stale_cache_outputs :
  outputs add_pixels_resets_cache_old (init 3) (w_ops 3 21 1 ++ [GetDemoted]) = [OUnit; OPix [21]; OUnit; OPix [21]] /\
  outputs true (init 3) (w_ops 3 21 1 ++ [GetDemoted]) = [OUnit; OPix [21]; OUnit; OPix [4; 5; 6; 7; 21]].
Proof. split; vm_compute; reflexivity. Qed.

Theorem C08_stale_cache_refuted : exists D ops x l,
  1 <= D /\ Forall (op_ok D) ops /\
  let s := run add_pixels_resets_cache_old (init D) ops in
  snd (step_with add_pixels_resets_cache_old s GetDemoted) = OPix l /\ absP s x /\ ~ In x l.
Proof.
  exists 3, (w_ops 3 21 1), 4, [21].
  split; [lia|]. split.
  - (* levels 3 and 2 lie in 1..3, and 21 < 12 * 4^3, 1 < 12 * 4^2 *)
    unfold w_ops, op_ok. repeat (apply Forall_cons || apply Forall_nil || split); lia.
  - cbv zeta. split; [vm_compute; reflexivity|]. split.
    + exists (2, 1). split; [vm_compute; tauto|]. unfold cover. vm_compute. split; congruence.
    + cbn. intros [H|[]]. discriminate H.
Qed.

Print Assumptions C08_stale_cache_refuted.
