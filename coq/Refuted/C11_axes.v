(* C11 - regression record of the repaired defect (repo commit 43dd64d "find_islands region test uses the island's
   own pixels at their FITS positions"): before the repair the region test of source_finder.find_islands was
       xmin, xmax = f[i][0].start, f[i][0].stop            # ROW range of the box
       ymin, ymax = f[i][1].start, f[i][1].stop            # COLUMN range of the box
       y, x = np.where(snr[xmin:xmax, ymin:ymax] >= flood_clip)      # y = row index, x = column index in the box
       yx = list(zip(y + ymin, x + xmin))                            # row + COLUMN start , column + ROW start
       ra, dec = wcs.wcs.wcs_pix2world(yx, 1).transpose()            # 0-based indices with origin 1
   now:  x, y = np.where(own);  yx = list(zip(y + ymin + 1, x + xmin + 1))      (x = row, y = column).
   Three errors at once: the first coordinate handed to the WCS was (row in box + column start) and the second
   (column in box + row start) - axes crossed against their offsets; no +1 for the 1-based FITS convention although
   origin 1 was passed; and flood pixels of OTHER islands inside the box were tested too (irrelevant for the
   single-island witness below, where the box holds only own pixels).
   Self-contained: frozen copies of the PRE-FIX leaves region_first / region_second / region_origin in the translator's
   reading (arguments: array position (r, c) inside a box starting at (rmin, cmin)) and of bbox / region_ok of
   Model/IslandModel.v (which imports Gen.Islands); `touches` is the definition of Props/C11.v.  No project import.
   Statement refuted = C11_filter, i.e. its pointwise content  region_ok inside I = touches inside I.
   Replay on the old code: 3 x 6 image, im[0, 2:5] = 10, bkg 0, rms 1, seed 5, flood 3, TAN WCS with 1' pixels,
   region = 0.3' circle round the sky position of FITS pixel (5, 1) (= array pixel (0, 4), an island pixel):
   old find_islands(..., region, wcs) returns [] ; with the circle at FITS pixel (2, 2) (= array (1, 1), NOT an island
   pixel) it returns the island.  The repaired code returns the island / [] respectively. *)
From Coq Require Import ZArith Bool List Lia.
Import ListNotations.
Open Scope Z_scope.

(* frozen PRE-FIX leaves *)
Definition region_first_old (r c rmin cmin : Z) : Z := (r + cmin).
Definition region_second_old (r c rmin cmin : Z) : Z := (c + rmin).
Definition region_origin_old : Z := 1.
(* the repaired leaves (Gen/Islands.v today) *)
Definition region_first_new (r c rmin cmin : Z) : Z := ((c + cmin) + 1).
Definition region_second_new (r c rmin cmin : Z) : Z := ((r + rmin) + 1).
Definition region_origin_new : Z := 1.

(* model fragment (copy of Model/IslandModel.v) *)
Definition pix := (Z * Z)%type.                       (* (row, column), 0-based array indices *)
Definition bbox (I : list pix) : Z * Z * Z * Z :=
  match I with
  | [] => (0, 0, 0, 0)
  | p :: t =>
    (fold_right Z.min (fst p) (map fst t), fold_right Z.max (fst p) (map fst t) + 1,
     fold_right Z.min (snd p) (map snd t), fold_right Z.max (snd p) (map snd t) + 1)
  end.
(* inside x y : the sky position of FITS pixel (x = column + 1, y = row + 1) is in the region;
   wcs_pix2world(p, origin) = position of FITS pixel p + 1 - origin *)
Definition region_ok_with (first second : Z -> Z -> Z -> Z -> Z) (origin : Z) (inside : Z -> Z -> bool) (I : list pix)
  : bool :=
  let '(r0, _, c0, _) := bbox I in
  existsb (fun p => inside (first (fst p - r0) (snd p - c0) r0 c0 + 1 - origin)
                           (second (fst p - r0) (snd p - c0) r0 c0 + 1 - origin)) I.
Definition region_ok_old := region_ok_with region_first_old region_second_old region_origin_old.
Definition region_ok_new := region_ok_with region_first_new region_second_new region_origin_new.
Definition touches (inside : Z -> Z -> bool) (I : list pix) : bool :=
  existsb (fun p => inside (snd p + 1) (fst p + 1)) I.

(* a 1 x 3 island in row 0, columns 2..4 (box: rows 0..0, columns 2..4 - not square) *)
Definition w_I : list pix := [(0, 2); (0, 3); (0, 4)].
(* region A = exactly FITS pixel (5, 1) = array pixel (0, 4), an island pixel *)
Definition w_in (x y : Z) : bool := (x =? 5) && (y =? 1).
(* region B = exactly FITS pixel (2, 2) = array pixel (1, 1), not an island pixel *)
Definition w_out (x y : Z) : bool := (x =? 2) && (y =? 2).

Example C11_axes_witness_values :
  region_ok_old w_in w_I = false /\ touches w_in w_I = true /\ region_ok_new w_in w_I = true /\
  region_ok_old w_out w_I = true /\ touches w_out w_I = false /\ region_ok_new w_out w_I = false.
Proof. vm_compute. repeat split; reflexivity. Qed.

(* the positions the old code asked the WCS about: FITS (2,0), (2,1), (2,2) - a COLUMN of pixels, for an island
   that is a ROW of pixels at FITS (3,1), (4,1), (5,1) *)
Example C11_axes_tested_positions :
  map (fun p : pix => (region_first_old (fst p - 0) (snd p - 2) 0 2 + 1 - region_origin_old,
                       region_second_old (fst p - 0) (snd p - 2) 0 2 + 1 - region_origin_old)) w_I
  = [(2, 0); (2, 1); (2, 2)] /\
  map (fun p : pix => (snd p + 1, fst p + 1)) w_I = [(3, 1); (4, 1); (5, 1)].
Proof. vm_compute. split; reflexivity. Qed.

(* an island touching the region is dropped ... *)
Theorem C11_axes_refuted : exists inside I, I <> [] /\ region_ok_old inside I <> touches inside I.
Proof. exists w_in, w_I. split; [discriminate|]. vm_compute. discriminate. Qed.
(* ... and an island not touching it is kept *)
Theorem C11_axes_kept_refuted : exists inside I,
  region_ok_old inside I = true /\ ~ exists p, In p I /\ inside (snd p + 1) (fst p + 1) = true.
Proof.
  exists w_out, w_I. split; [vm_compute; reflexivity|].
  intros H. apply existsb_exists in H. vm_compute in H. discriminate H.
Qed.

(* the repaired leaves agree with `touches` for every island and region (what Proofs/IslandProofs.v shows today) *)
Lemma C11_axes_now : forall inside I, region_ok_new inside I = touches inside I.
Proof.
  intros inside I. unfold region_ok_new, region_ok_with, touches.
  destruct (bbox I) as [[[r0 r1] c0] c1]. induction I as [|p t IH]; [reflexivity|].
  cbn [existsb]. rewrite IH. f_equal.
  unfold region_first_new, region_second_new, region_origin_new. f_equal; lia.
Qed.

Print Assumptions C11_axes_refuted.
Print Assumptions C11_axes_kept_refuted.
