(* C13 - regression record: C13_estimate_mirrored_partial without its hypothesis single_signed (mirror symmetry of
   the initial estimates for EVERY island with non-zero pixels) is false for the model of the current
   SourceFinder.estimate_lmfit_parinfo.

   Cause: `isnegative = np.nanmax(data[np.isfinite(data)]) < 0` is true only when ALL pixels of the
   island are negative, and every other island takes the positive branch.  The mirror image of "all
   negative" is "all positive", so an island that contains pixels of both signs (abs(snr) detection
   joins a positive source and an adjacent negative one into one island) takes the positive branch in
   the image AND in the negated image: each run sees only its own positive part.

   The leaves below are a frozen copy of Gen/Polarity.v as generated from the tree on which the
   finding was made (this file does not depend on Gen/). *)
From Coq Require Import ZArith QArith Qabs Qminmax Bool List.
From Aegean Require Import Lib.QBase Model.IslandModel Model.Polarity.
Import ListNotations.
Open Scope Q_scope.

Definition frozen : leaves := mkLeaves
  (fun mx => Qltb mx (0 # 1))
  (fun curve v rms oc => (Qltb (1 # 2) curve) && (Qltb (v + (oc * rms)) (0 # 1)))
  (fun curve v rms oc => (Qltb (1 # 2) (((-1) # 1) * curve)) && (Qltb (0 # 1) (v - (oc * rms))))
  (fun v => ((-1) # 1) * (Qabs v))
  true true false false
  (fun v rms => Qabs (v / rms))
  (fun snr ic => Qltb snr ic)
  (fun amp => Qltb (0 # 1) amp)
  (fun amp rms ic oc => (4278419646001971 # 4503599627370496) * (Qmin (oc * rms) amp))
  (fun amp rms ic oc => (amp * (4728779608739021 # 4503599627370496)) + (ic * rms))
  (fun amp rms ic oc => (amp * (4728779608739021 # 4503599627370496)) - (ic * rms))
  (fun amp rms ic oc => (4278419646001971 # 4503599627370496) * (Qmax ((- oc) * rms) amp))
  (fun n => if ((4 <=? n) && (n <=? 6))%Z then 4%Z else if (n <? 4)%Z then 1%Z else 0%Z)
  (fun minshape flag => (minshape <=? 2)%Z || negb (Z.land flag 1 =? 0)%Z || negb (Z.land flag 4 =? 0)%Z)
  4%Z (fun lo => lo) (fun hi => (hi + 1)%Z) (fun i m => (m <=? i)%Z) 20%Z 4%Z.

Definition px (r c v cu : Z) : ipx := mkIpx (r, c) (v # 1) (1 # 1) (cu # 1).

(* witness 1: the 1 x 2 island [ +10, -6 ] (rms 1, clips 5 / 4).  Estimate: one component of
   amplitude +10 at pixel (0,0).  Negated island [ -10, +6 ]: one component of amplitude +6 at pixel
   (0,1) instead of -10 at (0,0). *)
Definition w1 : island := [px 0 0 10 (-1); px 0 1 (-6) 1].
(* witness 2: a 4 x 7 island (not a tiny one): a positive source (peak 20) touching a negative one
   (peak -12).  The estimate has the positive component only; for the negated island it is again a
   positive component, at the position of the other source. *)
Definition w2 : island :=
  [px 0 1 5 0; px 0 2 6 0; px 0 3 5 0;
   px 1 0 5 0; px 1 1 8 0; px 1 2 20 (-1); px 1 3 9 0; px 1 4 (-6) 0; px 1 5 (-5) 0;
   px 2 1 6 0; px 2 2 9 0; px 2 3 7 0; px 2 4 (-12) 1; px 2 5 (-6) 0;
   px 3 2 5 0; px 3 3 6 0; px 3 4 (-7) 0; px 3 5 (-5) 0].

Definition est (shape : Z * Z) (isl : island) : list comp :=
  estimate frozen segs4 (fun _ => true) (5 # 1) (4 # 1) None shape isl.

Example w1_estimates :
  map (fun c => (c_amp c, c_pos c)) (est (1, 2)%Z w1) = [(10 # 1, (0, 0)%Z)] /\
  map (fun c => (c_amp c, c_pos c)) (est (1, 2)%Z (neg_island w1)) = [(6 # 1, (0, 1)%Z)].
Proof. split; vm_compute; reflexivity. Qed.

Example w2_estimates :
  map (fun c => (c_amp c, c_pos c)) (est (4, 7)%Z w2) = [(20 # 1, (1, 2)%Z)] /\
  map (fun c => (c_amp c, c_pos c)) (est (4, 7)%Z (neg_island w2)) = [(12 # 1, (2, 4)%Z)].
Proof. split; vm_compute; reflexivity. Qed.

Lemma amps_of_mirror : forall l l', Forall2 mirror_of l l' -> map c_amp l' = map (fun c => - c_amp c) l.
Proof.
  induction 1 as [|c c' l l' M _ IH]; cbn [map]; [reflexivity|].
  destruct M as [M _]. rewrite M, IH. reflexivity.
Qed.

Theorem C13_estimate_mirrored_refuted :
  exists (shape : Z * Z) (isl : island),
    (forall p, In p isl -> ~ ip_val p == 0) /\
    ~ Forall2 mirror_of (estimate frozen segs4 (fun _ => true) (5 # 1) (4 # 1) None shape isl)
                        (estimate frozen segs4 (fun _ => true) (5 # 1) (4 # 1) None shape (neg_island isl)).
Proof.
  exists (1, 2)%Z, w1. split.
  - intros p [<-|[<-|[]]]; cbn [px ip_val]; unfold Qeq; cbn; discriminate.
  - intros H. apply amps_of_mirror in H. vm_compute in H. discriminate H.
Qed.

Theorem C13_estimate_mirrored_refuted_large :
  ~ Forall2 mirror_of (est (4, 7)%Z w2) (est (4, 7)%Z (neg_island w2)).
Proof. intros H. apply amps_of_mirror in H. vm_compute in H. discriminate H. Qed.

Print Assumptions C13_estimate_mirrored_refuted.
Print Assumptions C13_estimate_mirrored_refuted_large.
