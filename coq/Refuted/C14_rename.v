(* C14 - column renaming in AeRes.load_sources, FROZEN REGRESSION RECORD of the pre-repair leaf.

   Before the repair (/repo 5b2cc1d "fix: AeRes.load_sources renames columns without clashing with existing ones") the
   columns were renamed one by one with table.rename_column(old, new).  For that shape the statement

     for every table (unique column names) that has the six user-named columns, load_sources
     succeeds and the field of each parameter holds the user's column

   (now proved as C14_rename for the repaired shape) is refuted: when the table also has a column with
   the catalogue name (an Aegean catalogue has both peak_flux and int_flux; AeRes --peakcol int_flux),
   astropy raises KeyError("Column peak_flux already exists").  The same input is a file case of the
   harness on every run.  This file carries its own copy of the old model and pairing (no reference
   to Gen/ or Model/, which follow the tree). *)
From Coq Require Import List String Bool.
Import ListNotations.
Open Scope string_scope.

Definition table := list (string * nat).
Definition has (t : table) (c : string) : bool := existsb (fun e => String.eqb (fst e) c) t.
Definition col (t : table) (c : string) : option nat := option_map snd (find (fun e => String.eqb (fst e) c) t).
Definition rename_column (t : table) (old new : string) : option table :=
  if negb (has t old) then None
  else if String.eqb old new then Some t
  else if has t new then None
  else Some (map (fun e => if String.eqb (fst e) old then (new, snd e) else e) t).
Fixpoint renames (t : table) (pairs : list (string * string)) : option table :=
  match pairs with
  | [] => Some t
  | (old, new) :: r => match rename_column t old new with Some t' => renames t' r | None => None end
  end.
Definition rename_from := ["ra_col"; "dec_col"; "peak_col"; "a_col"; "b_col"; "pa_col"].
Definition rename_to := ["ra"; "dec"; "peak_flux"; "a"; "b"; "pa"].
Definition load_table (colmap : string -> string) (t : table) : option table :=
  renames t (combine (map colmap rename_from) rename_to).

Definition loads_right (colmap : string -> string) (t : table) : Prop :=
  exists t', load_table colmap t = Some t' /\
             forall p f, In (p, f) (combine rename_from rename_to) -> col t' f = col t (colmap p).

(* an Aegean-like catalogue; the user asks for the integrated flux as the peak *)
Definition cat : table := [("ra", 1); ("dec", 2); ("peak_flux", 3); ("int_flux", 4); ("a", 5); ("b", 6); ("pa", 7)].
Definition colmap (p : string) : string :=
  if String.eqb p "peak_col" then "int_flux" else
  if String.eqb p "ra_col" then "ra" else if String.eqb p "dec_col" then "dec" else
  if String.eqb p "a_col" then "a" else if String.eqb p "b_col" then "b" else "pa".

Lemma C14_rename_total_refuted :
  exists colmap t, NoDup (map fst t) /\ (forall p, In p rename_from -> has t (colmap p) = true) /\ ~ loads_right colmap t.
Proof.
  exists colmap, cat. split; [|split].
  - repeat constructor; cbn; intuition discriminate.
  - intros p Hp. cbn in Hp. intuition (subst; reflexivity).
  - intros (t' & H & _). vm_compute in H. discriminate.
Qed.

(* the same user request on a table WITHOUT a peak_flux column works (so the model is not vacuous) *)
Example C14_rename_without_collision :
  load_table colmap [("ra", 1); ("dec", 2); ("int_flux", 4); ("a", 5); ("b", 6); ("pa", 7)]
  = Some [("ra", 1); ("dec", 2); ("peak_flux", 4); ("a", 5); ("b", 6); ("pa", 7)].
Proof. reflexivity. Qed.
Print Assumptions C14_rename_total_refuted.
