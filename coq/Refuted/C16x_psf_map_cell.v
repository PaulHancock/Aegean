(* C16x, recorded finding: the psf-map lookup of WCSHelper.get_psf_sky2sky does not return the cell of the map that contains the
   requested sky position.  psf_sky2pix returns 1-based FITS pixel coordinates (origin 1), and `int(np.clip(x, 0, shape - 1))` uses
   them as 0-based array indices: at the centre of cell (r, c) - FITS coordinates (c + 1, r + 1) - the lookup reads cell
   (r + 1, c + 1) (clipped at the last row / column).  Witness: a 5 x 5 map, cell (2, 3); replayed on the real code by
   tools/harness/c16x.py (psf_finding). *)
From Coq Require Import ZArith Lia.
From Aegean Require Import Gen.WcsBeam Model.WcsBeam Proofs.WcsBeamProofs.
Open Scope Z_scope.

Lemma C16x_psf_map_cell_refuted :
  exists (shape : Z -> Z) (r c : Z), 0 <= r < shape 1 /\ 0 <= c < shape 2 /\
    nearest_cell shape (c + 1) (r + 1) 1 = (r, c) /\ m_psf_cell shape (c + 1) (r + 1) 1 = (r + 1, c + 1) /\
    m_psf_cell shape (c + 1) (r + 1) 1 <> (r, c).
Proof.
  exists (fun _ => 5), 2, 3. split; [lia|]. split; [lia|]. split; [apply nearest_centre; lia|].
  rewrite psf_cell_centre by lia. split; [reflexivity | discriminate].
Qed.
Print Assumptions C16x_psf_map_cell_refuted.
