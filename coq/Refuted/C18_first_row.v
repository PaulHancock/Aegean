(* C18 - the FITS string-width rule BEFORE the repair (commit 4a699e6 of /repo): a string column other than
   `uuid` got the width of its FIRST entry.  Frozen copy of the old leaves: fits_str_first_rule = false,
   fits_width_all_rows = true (only the uuid branch took the maximum).  With that rule the statement of
   C18_string_width is false: a longer later entry does not fit and is truncated by the FITS writer. *)
From Coq Require Import ZArith Bool List String Lia.
From Aegean Require Import Gen.Catalog Model.Catalog Proofs.CatalogProofs.
Import ListNotations.
Open Scope string_scope.

Definition old_fits_str_first_rule : bool := false.
Definition old_fits_width_all_rows : bool := true.

Theorem C18_first_row_refuted :
  exists (name : string) (col : list (cell Z)) (w : nat) (s : string),
    homogeneous Z col /\
    fits_format_gen Z old_fits_str_first_rule old_fits_width_all_rows name col = FA w /\
    In (CStr s) col /\ (w < String.length s)%nat.
Proof.
  exists "ra_str", [CStr "XX:XX:XX.XX"; CStr "-20:30:00.00"], 11%nat, "-20:30:00.00".
  split; [|split; [|split]].
  - intros c [<-|[<-|[]]]; reflexivity.
  - rewrite fits_format_gen_spec. reflexivity.
  - right. left. reflexivity.
  - vm_compute. lia.
Qed.

(* the current leaves do not have the defect on the same column *)
Example C18_first_row_now : fits_format Z "ra_str" [CStr "XX:XX:XX.XX"; CStr "-20:30:00.00"] = FA 12.
Proof. rewrite leaf_fits_format. reflexivity. Qed.

Print Assumptions C18_first_row_refuted.
