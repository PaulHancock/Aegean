(* C20 - regression record of the repaired defect (repo commit 79b5692 "load_image_band computes band limits with
   integer arithmetic"): before the repair fits_tools.load_image_band had
       row_min = int(header['NAXIS2']/band[1] * (band[0]))
       row_max = int(header['NAXIS2']/band[1] * (band[0]+1))
   evaluated in binary64: NAXIS2/n is rounded, the product is rounded again, and int() truncates.  Whenever the two
   roundings land just below the exact integer the limit is one too small; for the LAST band (exact value NAXIS2) the
   last image row then belongs to no band: int(1/49*49) == 0.
   Self-contained: frozen copy of the PRE-FIX leaves over Coq's primitive binary64 floats (bit-exact IEEE-754
   round-to-nearest-even, the arithmetic CPython uses); the repaired integer leaves beside them; no import from the
   project.  vm_compute only (no native_compute).
   Statement refuted = the second clause of C20_tiles_consecutive:  0 < n -> row_max N (n - 1) n = N
   (and with it C20_tiles_cover: row 0 of the 1-row image is in none of the 49 bands).
   Replay on the old code: load_image_band(f, band=(48, 49)) on an image with NAXIS2 = 1 returns 0 rows;
   in plain Python: int(1/49*49) == 0. *)
From Coq Require Import ZArith Bool List Lia Uint63 PrimFloat FloatOps SpecFloat.
Import ListNotations.
Open Scope Z_scope.

Definition float_of_Z (z : Z) : float := of_uint63 (Uint63.of_Z z).   (* exact for 0 <= z < 2^53 *)
(* Python int() of a finite float: truncation towards zero; None for inf / nan (int() raises) *)
Definition trunc_float (f : float) : option Z :=
  match Prim2SF f with
  | S754_zero _ => Some 0
  | S754_finite s m e =>
      let mag := if 0 <=? e then Z.pos m * 2 ^ e else Z.pos m / 2 ^ (- e) in
      Some (if s then - mag else mag)
  | _ => None
  end.

(* frozen PRE-FIX leaves: int(naxis2 / b1 * b0), int(naxis2 / b1 * (b0 + 1)) *)
Definition row_min_old (naxis2 b0 b1 : Z) : option Z :=
  trunc_float (PrimFloat.mul (PrimFloat.div (float_of_Z naxis2) (float_of_Z b1)) (float_of_Z b0)).
Definition row_max_old (naxis2 b0 b1 : Z) : option Z :=
  trunc_float (PrimFloat.mul (PrimFloat.div (float_of_Z naxis2) (float_of_Z b1)) (float_of_Z (b0 + 1))).
(* the repaired leaves (Gen/Bands.v today) *)
Definition row_min_new (naxis2 b0 b1 : Z) : Z := ((naxis2 * b0) / b1).
Definition row_max_new (naxis2 b0 b1 : Z) : Z := ((naxis2 * (b0 + 1)) / b1).

Example C20_float_witness_values :
  row_max_old 1 48 49 = Some 0 /\ row_min_old 1 48 49 = Some 0 /\ row_max_new 1 48 49 = 1 /\ row_min_new 1 48 49 = 0.
Proof. vm_compute. repeat split; reflexivity. Qed.

(* the last band does not end at the last row *)
Theorem C20_float_refuted : exists N n, 0 < n /\ row_max_old N (n - 1) n <> Some N.
Proof. exists 1, 49. split; [lia|]. vm_compute. discriminate. Qed.

(* hence a row that is in no band: 1-row image, 49 bands *)
Definition in_band_old (N n r i : Z) : bool :=
  match row_min_old N i n, row_max_old N i n with
  | Some lo, Some hi => (lo <=? r) && (r <? hi)
  | _, _ => false
  end.
Fixpoint zrange (lo : Z) (k : nat) : list Z := match k with O => [] | S k' => lo :: zrange (lo + 1) k' end.
Theorem C20_float_cover_refuted : exists N n r, 0 < n /\ 0 <= r < N /\
  forallb (fun i => negb (in_band_old N n r i)) (zrange 0 (Z.to_nat n)) = true.
Proof. exists 1, 49, 0. split; [lia|]. split; [lia|]. vm_compute. reflexivity. Qed.

(* how common: the (rows, bands) pairs with rows, bands < 100 for which the old last band loses the last row;
   CPython gives the same list: [(N, n) for N in range(1,100) for n in range(1,100) if int(N/n*n) != N] has 266
   entries starting (1, 49), (1, 98), (2, 49), (2, 98), (3, 47) *)
Definition bad_pairs (M : Z) : list (Z * Z) :=
  flat_map (fun N => flat_map (fun n => match row_max_old N (n - 1) n with
                                        | Some v => if v =? N then [] else [(N, n)]
                                        | None => [(N, n)]
                                        end) (zrange 1 (Z.to_nat (M - 1))))
           (zrange 1 (Z.to_nat (M - 1))).
(* coqchk checks the sweep below again without the bytecode machine, and there the binary long division
   Z.pos m / 2 ^ (- e) of trunc_float on 53-bit mantissas is what takes the time: the sweep runs on a copy of
   bad_pairs that shifts instead of dividing (trunc_shift_eq, bad_pairs_shift_eq). *)
Definition trunc_shift (f : float) : option Z :=
  match Prim2SF f with
  | S754_zero _ => Some 0
  | S754_finite s m e =>
      let mag := if 0 <=? e then Z.shiftl (Z.pos m) e else Z.shiftr (Z.pos m) (- e) in
      Some (if s then - mag else mag)
  | _ => None
  end.
Lemma trunc_shift_eq f : trunc_float f = trunc_shift f.
Proof.
  unfold trunc_float, trunc_shift. destruct (Prim2SF f) as [| | |s m e]; try reflexivity.
  destruct (Z.leb_spec 0 e); [rewrite Z.shiftl_mul_pow2|rewrite Z.shiftr_div_pow2]; (reflexivity || lia).
Qed.
Definition bad_pairs_shift (M : Z) : list (Z * Z) :=
  flat_map (fun N => flat_map (fun n =>
      match trunc_shift (PrimFloat.mul (PrimFloat.div (float_of_Z N) (float_of_Z n)) (float_of_Z (n - 1 + 1))) with
      | Some v => if v =? N then [] else [(N, n)]
      | None => [(N, n)]
      end) (zrange 1 (Z.to_nat (M - 1))))
           (zrange 1 (Z.to_nat (M - 1))).
Lemma bad_pairs_shift_eq M : bad_pairs M = bad_pairs_shift M.
Proof.
  unfold bad_pairs, bad_pairs_shift, row_max_old.
  apply flat_map_ext; intros N. apply flat_map_ext; intros n. now rewrite trunc_shift_eq.
Qed.

Example C20_float_bad_pairs_below_100 :
  length (bad_pairs 100) = 266%nat /\ firstn 5 (bad_pairs 100) = [(1, 49); (1, 98); (2, 49); (2, 98); (3, 47)].
Proof. rewrite bad_pairs_shift_eq. vm_compute. split; reflexivity. Qed.

Print Assumptions C20_float_refuted.
Print Assumptions C20_float_cover_refuted.
